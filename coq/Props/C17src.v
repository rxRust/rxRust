(* C17 (and the composite used by C02 / C05 / C07 / C10), tie to the source by translation: MultiSubscription /
   MultiSubscriptionThreads (one macro body in subscription.rs), as parsed from /repo/src on this run (Gen/Bodies.v,
   translator T5) and run by the evaluator of Model/RustSem.v - with its iterator closures (for_each, all, retain) run
   element by element - is the composite machine: unsubscribe() empties the cell and unsubscribes the members in order,
   is_closed() is "gone, or every member closed", append() after unsubscribe() tears the addition down at once, retain()
   drops the vacated places.  The vector is of unknown length; the theorem is for composites of up to THREE members
   (every shape: vacated places, closed and open members).  This file holds only the property theorems, each closed by
   `exact`. *)
From RxModel Require Import BodyAbsMulti.
From RxGen Require Import Bodies.
From RxProofs Require BodyTieMulti.

Theorem C17_source_composite_partial : multi_agrees_upto bodies 3.
Proof. exact BodyTieMulti.multi_ok. Qed.

(* of the machine: a late addition is unsubscribed at once; an unsubscribed composite says closed *)
Theorem C17_machine_late_addition : forall c k, mstep None (MAppend (c, k)) = (None, [mark k], VUnit).
Proof. exact BodyTieMulti.late_addition_torn_down. Qed.

Theorem C17_machine_unsubscribed_is_closed : forall s, snd (mstep (fst (fst (mstep s MUnsubscribe))) MIsClosed) = VBool true.
Proof. exact BodyTieMulti.unsubscribed_is_closed. Qed.

Check C17_source_composite_partial : multi_agrees_upto bodies 3.
Check C17_machine_late_addition : forall c k, mstep None (MAppend (c, k)) = (None, [mark k], VUnit).
Check C17_machine_unsubscribed_is_closed : forall s, snd (mstep (fst (fst (mstep s MUnsubscribe))) MIsClosed) = VBool true.
Print Assumptions C17_source_composite_partial.
Print Assumptions C17_machine_late_addition.
Print Assumptions C17_machine_unsubscribed_is_closed.

Example C17_example_source_late_append :
  call_method bodies "subscription.rs" FUEL "MultiSubscription" "append" (multi None) [boxed (false, 7%nat)]
  = Some (multi None, [mark 7], VUnit).
Proof. exact (C17_source_composite_partial None (MAppend (false, 7%nat)) I). Qed.
