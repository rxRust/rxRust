(* C01, tie to the source by translation for the subscriber built from closures, `.on_error(f).on_complete(g).subscribe(h)`:
   the three observers (ops/on_error.rs, ops/on_complete.rs, observable/subscribe_item.rs) as parsed from /repo/src on
   this run (Gen/Bodies.v, translator T5) and run by the evaluator of Model/RustSem.v hand each notification to exactly
   the closure it is meant for - nothing else is called - so that what the closures see is Pipe.idiom_log of what the
   pipeline delivers, about which C01_closure_idiom / C01_closure_idiom_grammar are proved.  This file holds only the
   property theorems, each closed by `exact`. *)
From RxModel Require Import BodyAbsIdiom.
From RxGen Require Import Bodies.
From RxProofs Require BodyTieIdiom.

(* one call: next(v) calls h(v), error(e) calls f(e) and nothing else (the error is consumed), complete() calls g() *)
Theorem C01_source_idiom_call : idiom_call_agrees bodies.
Proof. exact BodyTieIdiom.idiom_call_ok. Qed.

(* any call sequence: the closures are called with idiom_log of it *)
Theorem C01_source_idiom_run : forall t : list ev, idiom_run bodies idiom_observer t = Some (idiom_log true t).
Proof. exact BodyTieIdiom.idiom_run_ok. Qed.

Check C01_source_idiom_call : idiom_call_agrees bodies.
Check C01_source_idiom_run : forall t, idiom_run bodies idiom_observer t = Some (idiom_log true t).
Print Assumptions C01_source_idiom_call.
Print Assumptions C01_source_idiom_run.

Example C01_example_source_idiom :
  idiom_run bodies idiom_observer [Next (VZ 1); Next (VZ 2); Err 7; Next (VZ 3); Done] = Some [Next (VZ 1); Next (VZ 2); Err 7].
Proof. exact (C01_source_idiom_run [Next (VZ 1); Next (VZ 2); Err 7; Next (VZ 3); Done]). Qed.
