(* C02 (and the slot argument of C01 / C17), tie to the source by translation: Subscriber / SubscriberThreads - the slot
   that stands between every hot source and the observer it was given, and that `subscribe` on a Subject returns as the
   subscription - as parsed from /repo/src on this run (Gen/Bodies.v, translator T5; one macro body for both forms) and run by
   the evaluator of Model/RustSem.v, is the two-state slot machine.  This file holds only the property theorems, each
   closed by `exact`. *)
From RxModel Require Import BodyAbsSlot.
From RxGen Require Import Bodies.
From RxProofs Require BodyTieSlot.

(* next / error / complete / unsubscribe are the machine's steps; is_closed() is "the observer is gone" *)
Theorem C02_source_subscriber : subscriber_agrees bodies.
Proof. exact BodyTieSlot.subscriber_ok. Qed.

(* any history of calls (through any clone: they share the cell) *)
Theorem C02_source_subscriber_run :
  forall (os : list slot_op) (alive : bool), subscriber_run bodies (subscriber alive) os = Some (slot_run alive os).
Proof. exact BodyTieSlot.subscriber_run_ok. Qed.

(* once unsubscribe() has returned, whatever the source calls afterwards, nothing is delivered *)
Theorem C02_source_silent_after_unsubscribe :
  forall before after : list slot_op,
    subscriber_run bodies (subscriber true) (before ++ SUnsubscribe :: after) = Some (slot_run true before).
Proof. exact BodyTieSlot.silent_after_unsubscribe. Qed.

Check C02_source_subscriber : subscriber_agrees bodies.
Check C02_source_subscriber_run : forall os alive, subscriber_run bodies (subscriber alive) os = Some (slot_run alive os).
Check C02_source_silent_after_unsubscribe :
  forall before after, subscriber_run bodies (subscriber true) (before ++ SUnsubscribe :: after) = Some (slot_run true before).
Print Assumptions C02_source_subscriber.
Print Assumptions C02_source_subscriber_run.
Print Assumptions C02_source_silent_after_unsubscribe.

Example C02_example_source_subscriber :
  subscriber_run bodies (subscriber true) [SNotify (Next (VZ 1)); SUnsubscribe; SNotify (Next (VZ 2)); SNotify Done]
  = Some [Next (VZ 1)].
Proof. exact (C02_source_subscriber_run [SNotify (Next (VZ 1)); SUnsubscribe; SNotify (Next (VZ 2)); SNotify Done] true). Qed.
