(* C05 (and C18), tie to the source by translation for the flattening family: merge_all(n), concat_all, flatten, flat_map,
   concat_map and their _threads forms are default methods of ObservableExt that build ONE operator, MergeAllOp /
   MergeAllOpThreads, with a concurrency limit, possibly behind a map.  The translated methods (Gen/Bodies.v, translator T5),
   evaluated on the upstream observable, build exactly that: the limit the machine of Model/Flatten.v is run with (1 for the
   concat forms, usize::MAX for flatten / flat_map, n for merge_all(n)), the same in both forms.  This file holds only the
   property theorem, closed by `exact`. *)
From RxModel Require Import BodyAbsExt.
From RxGen Require Import Bodies.
From RxProofs Require BodyTieExt.

Theorem C05_source_limits : flatten_family_agrees bodies.
Proof. exact BodyTieExt.flatten_family_ok. Qed.

Check C05_source_limits : flatten_family_agrees bodies.
Print Assumptions C05_source_limits.

Example C05_example_source_concat_map_threads :
  ext_skeleton bodies "concat_map_threads" [VClosTok] = Some [("MapOp", PNone); ("MergeAllOpThreads", PNum 1)].
Proof. exact (C05_source_limits AConcatMap true). Qed.

Example C05_example_limits : map api_limit [AMergeAll 0; AMergeAll 3; AConcatAll; AFlatten; AFlatMap; AConcatMap]
  = [Some 0; Some 3; Some 1; None; None; Some 1]%nat.
Proof. reflexivity. Qed.
