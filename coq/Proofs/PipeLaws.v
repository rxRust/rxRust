(* C01: whatever the tree, whatever the calls on its hot inputs: items, at most one terminal, nothing after. *)
From RxModel Require Import Pipe.
From RxSpec Require Import GroupBySpec.
From RxProofs Require Import ChainLaws DerivedLaws Ops2Laws UnsubLaws FinLaws.
From RxProofs Require GroupByLaws.
Local Open Scope nat_scope.

(* a terminal in what a step emits closes the operator, and a closed operator is silent *)
Theorem op2_wf o : forall tl s la lb, wf (run2 o s la lb tl) = true.
Proof.
  induction tl as [|[sd e] r IH]; intros s la lb; [reflexivity|]. cbn [run2].
  destruct (match sd with A => la | B => lb end); [|apply IH].
  pose proof (step2_closing o s sd e) as C. destruct (step2 o s sd e) as [s' out].
  destruct C as [Hn|[Hw Ha]]; cbn [fst snd] in *.
  - rewrite wf_items_app by exact Hn. apply IH.
  - rewrite (silent o s' _ _ r Ha), app_nil_r. exact Hw.
Qed.

Lemma chain_chunks_concat : forall cs ch, concat (chain_chunks ch cs) = snd (push ch (concat cs)).
Proof.
  induction cs as [|c r IH]; intros ch.
  - cbn. rewrite <- drive_push. reflexivity.
  - cbn [chain_chunks concat]. rewrite push_app. destruct (push ch c) as [ch' out]. cbn [concat].
    rewrite IH. destruct (push ch' (concat r)) as [ch2 o2]. reflexivity.
Qed.

Lemma chunks_nonempty p sts : chunks p sts <> [].
Proof.
  revert sts. induction p as [i|script|s|p IH os|o a IHa b IHb]; intros sts; cbn [chunks]; try discriminate.
  - destruct (subscribe_chain os) as [ch pre]. destruct (chunks p sts) as [|c0 r]; [discriminate|].
    destruct (push ch c0); discriminate.
  - specialize (IHa sts). specialize (IHb sts). destruct (chunks a sts) as [|ca ra]; [contradiction|].
    destruct (chunks b sts) as [|cb rb]; [contradiction|]. cbn [op2_chunks].
    destruct (final2 o (init2 o) true true (chunk_tl o ca cb)) as [[s' la'] lb']. discriminate.
Qed.

Theorem exec_chain p os sts : exec (PChain p os) sts = run_hot os (exec p sts).
Proof.
  unfold exec, run_hot. cbn [chunks]. destruct (subscribe_chain os) as [ch pre].
  pose proof (chunks_nonempty p sts) as N. destruct (chunks p sts) as [|c0 r]; [contradiction|].
  cbn [concat]. rewrite drive_push, push_app. destruct (push ch c0) as [ch' out]. cbn [concat].
  rewrite chain_chunks_concat. destruct (push ch' (concat r)) as [ch2 o2]. cbn [snd]. rewrite app_assoc. reflexivity.
Qed.

(* the timeline of a two-input operator over the chunks of its inputs: chunk by chunk, within a chunk the
   input subscribed first is served first *)
Fixpoint all_tl (o : op2) (ca cb : list (list ev)) : timeline :=
  match ca, cb with
  | a :: ra, b :: rb => chunk_tl o a b ++ all_tl o ra rb
  | _, _ => []
  end.

Lemma op2_chunks_concat o : forall ca cb s la lb,
  concat (op2_chunks o s la lb ca cb) = run2 o s la lb (all_tl o ca cb).
Proof.
  induction ca as [|a ra IH]; intros cb s la lb; [reflexivity|]. destruct cb as [|b rb]; [reflexivity|].
  cbn [op2_chunks all_tl]. rewrite run2_incremental.
  destruct (final2 o s la lb (chunk_tl o a b)) as [[s' la'] lb']. cbn [concat]. rewrite IH. reflexivity.
Qed.

Theorem exec_op2 o a b sts : exec (POp2 o a b) sts = run_op2 o (all_tl o (chunks a sts) (chunks b sts)).
Proof. unfold exec, run_op2. cbn [chunks]. apply op2_chunks_concat. Qed.

Lemma hot_chunks_wf i : forall sts live, wf (concat (hot_chunks i live sts)) = true /\ (live = false -> concat (hot_chunks i live sts) = []).
Proof.
  induction sts as [|[j e] r IH]; intros live; [cbn; auto|]. cbn [hot_chunks].
  destruct (Nat.eqb i j && live) eqn:E.
  - apply andb_prop in E. destruct E as [_ ->]. cbn [concat app].
    destruct (IH (negb (is_term e))) as [W Z]. split; [|discriminate].
    destruct e; cbn [wf is_term negb] in *; [exact W|rewrite (Z eq_refl); reflexivity|rewrite (Z eq_refl); reflexivity].
  - cbn [concat app]. destruct (IH live) as [W Z]. split; [exact W|exact Z].
Qed.

Lemma concat_nils {A B} (l : list B) : concat (map (fun _ => @nil A) l) = [].
Proof. induction l; cbn; auto. Qed.

(* the grammar, for every tree and every sequence of calls on its hot inputs *)
Theorem pipe_wf : forall p sts, wf (exec p sts) = true.
Proof.
  induction p as [i|script|s|p IH os|o a IHa b IHb]; intros sts.
  - unfold exec. cbn [chunks concat app]. apply hot_chunks_wf.
  - unfold exec. cbn [chunks concat]. rewrite concat_nils, app_nil_r. apply wf_slot.
  - unfold exec. cbn [chunks concat]. rewrite concat_nils, app_nil_r. apply wf_src.
  - rewrite exec_chain. apply chain_output_wf, IH.
  - rewrite exec_op2. apply op2_wf.
Qed.

(* the closure idiom sees exactly the trace when it is well-formed ... *)
Theorem idiom_sees_trace : forall t, wf t = true -> idiom_log true t = t.
Proof.
  induction t as [|e r IH]; intros H; [reflexivity|]. cbn [idiom_log]. destruct e; cbn [is_term negb].
  - rewrite IH by exact H. reflexivity.
  - cbn in H. destruct r; [reflexivity|discriminate].
  - cbn in H. destruct r; [reflexivity|discriminate].
Qed.

(* ... and is well-formed in any case *)
Theorem idiom_wf : forall t live, wf (idiom_log live t) = true.
Proof.
  induction t as [|e r IH]; intros live; [reflexivity|]. cbn [idiom_log]. destruct live; [|reflexivity].
  destruct e; cbn [is_term negb wf].
  - apply IH.
  - destruct r; reflexivity.
  - destruct r; reflexivity.
Qed.

(* group_by: every group's subscriber sees a well-formed trace *)
Lemma nexts_no_term (l : list val) : has_term (map Next l) = false.
Proof. induction l; auto. Qed.

Theorem group_wf key k items t : wf (group_trace k (run_group_by key (mk items t))) = true.
Proof.
  rewrite GroupByLaws.group_by_group_trace, wf_items_app by apply nexts_no_term.
  destruct (mem k (map key items)); [|reflexivity]. destruct t; reflexivity.
Qed.
