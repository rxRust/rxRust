(* C01 for the scheduler-using operators and the time sources: under every label sequence the
   notifications that reach the subscriber are items, then at most one terminal, then nothing.
   Route: every trace predicate of Spec/TimedSpec.v is a walk whose step refuses a delivery
   once a terminal has been delivered (the walk of interval never sees one: its step accepts
   items only); the model satisfies its predicate for every label sequence (TimedLaws /
   RelayLaws / RateLaws / BufferLaws); hence the grammar. *)
From RxModel Require Import Chain Pipe.
From RxModel Require Import Timed.
From RxSpec Require Import TimedSpec.
From RxProofs Require Import TimedLaws RelayLaws RateLaws BufferLaws.
From RxProofs Require ChainLaws.
Open Scope N_scope.

(* what the subscriber is called with, in order *)
Definition delivered (out : list tout) : list ev :=
  flat_map (fun x => match x with TOut _ e => [e] | _ => [] end) out.

Lemma delivered_other x r :
  (forall a e, x <> TOut a e) -> delivered (x :: r) = delivered r.
Proof. intros H. destruct x as [a e|b|t sq a|t|j]; try reflexivity. exfalso. apply (H a e). reflexivity. Qed.

Lemma tout_or_other x : (exists a e, x = TOut a e) \/ (forall a e, x <> TOut a e).
Proof. destruct x; [left; eauto|right; discriminate..]. Qed.

Lemma delivered_app a b : delivered (a ++ b) = delivered a ++ delivered b.
Proof. unfold delivered. apply flat_map_app. Qed.

Lemma wf_cons_item e l : is_term e = false -> wf (e :: l) = wf l.
Proof. destruct e as [v|z|]; cbn [is_term]; intros H; try discriminate. reflexivity. Qed.

Lemma wf_cons_term e : is_term e = true -> wf [e] = true.
Proof. destruct e as [v|z|]; cbn [is_term]; intros H; try discriminate; reflexivity. Qed.

(* ---------- a walk that closes after a terminal accepts only well-formed deliveries ---------- *)

Section ClosingWalk.
  Variable St : Type.
  Variable step : St -> tout -> option St.
  Variable fin : St -> bool.       (* a terminal has been delivered *)

  (* a delivery is accepted only while open, and closes the walk exactly when it is a terminal *)
  Hypothesis step_tout : forall s a e s',
    step s (TOut a e) = Some s' -> fin s = false /\ fin s' = is_term e.
  (* everything else leaves the flag alone *)
  Hypothesis step_other : forall s x s',
    (forall a e, x <> TOut a e) -> step s x = Some s' -> fin s' = fin s.

  Lemma closed_walk_silent : forall out s s',
    fin s = true -> walk step s out = Some s' -> delivered out = [].
  Proof.
    induction out as [|x r IH]; intros s s' Hf Hw; [reflexivity|].
    cbn [walk] in Hw. destruct (step s x) as [s1|] eqn:Es; [|discriminate].
    destruct (tout_or_other x) as [(a & e & ->)|Hx].
    - destruct (step_tout _ _ _ _ Es) as [H0 _]. congruence.
    - rewrite (delivered_other x r Hx). apply (IH s1 s'); [|exact Hw]. rewrite (step_other s x s1 Hx Es). exact Hf.
  Qed.

  Lemma open_walk_wf : forall out s s',
    fin s = false -> walk step s out = Some s' -> wf (delivered out) = true.
  Proof.
    induction out as [|x r IH]; intros s s' Hf Hw; [reflexivity|].
    cbn [walk] in Hw. destruct (step s x) as [s1|] eqn:Es; [|discriminate].
    destruct (tout_or_other x) as [(a & e & ->)|Hx].
    - change (delivered (TOut a e :: r)) with (e :: delivered r). destruct (step_tout _ _ _ _ Es) as [_ H1].
      destruct (is_term e) eqn:Et.
      + rewrite (closed_walk_silent r s1 s' H1 Hw). apply wf_cons_term. exact Et.
      + rewrite (wf_cons_item e _ Et). apply (IH s1 s'); [exact H1|exact Hw].
    - rewrite (delivered_other x r Hx). apply (IH s1 s'); [|exact Hw]. rewrite (step_other s x s1 Hx Es). exact Hf.
  Qed.

  Lemma accepted_walk_wf out s :
    fin s = false -> accepted (walk step s out) = true -> wf (delivered out) = true.
  Proof.
    intros Hf Ha. destruct (walk step s out) as [s'|] eqn:Ew; [|discriminate].
    apply (open_walk_wf out s s' Hf Ew).
  Qed.
End ClosingWalk.

Lemma w_label_finished w l : w_finished (w_label w l) = w_finished w.
Proof.
  destruct l as [l|]; [|reflexivity].
  destruct l; try reflexivity. cbn [w_label]. destruct (w_src_done w); reflexivity.
Qed.

Lemma w_deliver_finished w i e : w_finished (w_deliver w i e) = w_finished w || is_term e.
Proof. reflexivity. Qed.

Lemma ev_eqb_is_term a b : ev_eqb a b = true -> is_term a = is_term b.
Proof. destruct a, b; cbn [ev_eqb is_term]; intros H; try discriminate; reflexivity. Qed.

Lemma relay_step_tout d de ls w a e w' :
  relay_step d de ls w (TOut a e) = Some w' -> w_finished w = false /\ w_finished w' = is_term e.
Proof.
  cbn [relay_step]. intros H.
  destruct (negb (w_finished w)) eqn:Ef; cbn [andb] in H; [|discriminate].
  apply Bool.negb_true_iff in Ef. split; [exact Ef|].
  destruct (negb (w_unsub w) && (a =? w_now w)); [|discriminate].
  destruct (w_cur w) as [c|]; [|discriminate].
  destruct c as [e0|t|dt| | | |dl|p dl k|dl|t|t]; try discriminate.
  - destruct e0 as [v|z|]; try discriminate.
    destruct (de && ev_eqb e (Err z)); [|discriminate].
    inversion H; subst w'. rewrite w_deliver_finished, Ef. reflexivity.
  - destruct (nth_error (task_events de w) t) as [[e' arr]|]; [|discriminate].
    destruct (ev_eqb e e' && (arr + d <=? a) && negb (memn' t (w_delivered w))); [|discriminate].
    inversion H; subst w'. rewrite w_deliver_finished, Ef. reflexivity.
Qed.

Lemma relay_step_other d de ls w x w' :
  (forall a e, x <> TOut a e) -> relay_step d de ls w x = Some w' -> w_finished w' = w_finished w.
Proof.
  intros Hx H. destruct x as [a e|b|t sq a|t|j]; cbn [relay_step] in H.
  - exfalso. apply (Hx a e). reflexivity.
  - inversion H; reflexivity.
  - inversion H; reflexivity.
  - inversion H; reflexivity.
  - inversion H; subst w'. apply w_label_finished.
Qed.

Lemma relay_ok_wf d de ls out : relay_ok d de ls out = true -> wf (delivered out) = true.
Proof.
  unfold relay_ok. intros H.
  apply (accepted_walk_wf wstate (relay_step d de ls) w_finished
           (relay_step_tout d de ls) (relay_step_other d de ls) out (w0 true)); [reflexivity|exact H].
Qed.

Lemma passthru_step_tout d ls w a e w' :
  passthru_step d ls w (TOut a e) = Some w' -> w_finished w = false /\ w_finished w' = is_term e.
Proof.
  cbn [passthru_step]. intros H.
  destruct (negb (w_finished w)) eqn:Ef; cbn [andb] in H; [|discriminate].
  apply Bool.negb_true_iff in Ef. split; [exact Ef|].
  destruct (negb (w_unsub w) && (a =? w_now w) && (d <=? a)); [|discriminate].
  destruct (w_cur w) as [c|]; [|discriminate].
  destruct c as [e0|t|dt| | | |dl|p dl k|dl|t|t]; try discriminate.
  destruct (ev_eqb e e0); [|discriminate].
  inversion H; subst w'. rewrite w_deliver_finished, Ef. reflexivity.
Qed.

Lemma passthru_step_other d ls w x w' :
  (forall a e, x <> TOut a e) -> passthru_step d ls w x = Some w' -> w_finished w' = w_finished w.
Proof.
  intros Hx H. destruct x as [a e|b|t sq a|t|j]; cbn [passthru_step] in H.
  - exfalso. apply (Hx a e). reflexivity.
  - inversion H; reflexivity.
  - inversion H; reflexivity.
  - inversion H; reflexivity.
  - inversion H; subst w'. apply w_label_finished.
Qed.

Lemma passthru_ok_wf d ls out : passthru_ok d ls out = true -> wf (delivered out) = true.
Proof.
  unfold passthru_ok. intros H.
  apply (accepted_walk_wf wstate (passthru_step d ls) w_finished
           (passthru_step_tout d ls) (passthru_step_other d ls) out (w0 true)); [reflexivity|exact H].
Qed.

Definition cfin (s : wstate * list val) : bool := w_finished (fst s).

Lemma collect_step_tout ls s a e s' :
  collect_step ls s (TOut a e) = Some s' -> cfin s = false /\ cfin s' = is_term e.
Proof.
  destruct s as [w acc]. unfold cfin. cbn [collect_step fst]. intros H.
  destruct (negb (w_finished w)) eqn:Ef; cbn [andb] in H; [|discriminate].
  apply Bool.negb_true_iff in Ef. split; [exact Ef|].
  destruct (negb (w_unsub w) && (a =? w_now w)); [|discriminate].
  destruct e as [v|z|]; inversion H; subst s'; cbn [fst is_term].
  - exact Ef.
  - rewrite w_deliver_finished, Ef. reflexivity.
  - rewrite w_deliver_finished, Ef. reflexivity.
Qed.

Lemma collect_step_other ls s x s' :
  (forall a e, x <> TOut a e) -> collect_step ls s x = Some s' -> cfin s' = cfin s.
Proof.
  intros Hx H. destruct s as [w acc]. unfold cfin.
  destruct x as [a e|b|t sq a|t|j]; cbn [collect_step] in H.
  - exfalso. apply (Hx a e). reflexivity.
  - inversion H; reflexivity.
  - inversion H; reflexivity.
  - inversion H; reflexivity.
  - inversion H; subst s'. cbn [fst]. apply w_label_finished.
Qed.

Lemma collect_walk_wf ls out s' :
  walk (collect_step ls) (w0 true, []) out = Some s' -> wf (delivered out) = true.
Proof.
  intros H.
  apply (open_walk_wf (wstate * list val) (collect_step ls) cfin
           (collect_step_tout ls) (collect_step_other ls) out (w0 true, []) s'); [reflexivity|exact H].
Qed.

Lemma subseq_ok_wf ls out : subseq_ok ls out = true -> wf (delivered out) = true.
Proof.
  unfold subseq_ok. intros H.
  destruct (walk (collect_step ls) (w0 true, []) out) as [s'|] eqn:Ew; [|discriminate].
  apply (collect_walk_wf ls out s' Ew).
Qed.

Lemma buffers_ok_wf limit ls out : buffers_ok limit ls out = true -> wf (delivered out) = true.
Proof.
  unfold buffers_ok. intros H.
  destruct (walk (collect_step ls) (w0 true, []) out) as [s'|] eqn:Ew; [|discriminate].
  apply (collect_walk_wf ls out s' Ew).
Qed.

(* the "terminal seen" flag of a walk that accepts no terminal *)
Definition never_fin (s : istate) : bool := false.

Lemma interval_step_tout p ls s a e s' :
  interval_step p ls s (TOut a e) = Some s' -> never_fin s = false /\ never_fin s' = is_term e.
Proof.
  cbn [interval_step]. intros H. split; [reflexivity|]. unfold never_fin.
  destruct (ev_eqb e (Next (VZ (Z.of_nat (i_next s))))) eqn:Ee.
  - rewrite (ev_eqb_is_term _ _ Ee). reflexivity.
  - rewrite andb_false_r in H. discriminate.
Qed.

Lemma interval_ok_wf first p ls out : interval_ok first p ls out = true -> wf (delivered out) = true.
Proof.
  unfold interval_ok. intros H.
  apply (accepted_walk_wf istate (interval_step p ls) never_fin
           (interval_step_tout p ls) (fun _ _ _ _ _ => eq_refl) out
           {| i_w := w0 false; i_next := 0; i_earliest := first |}); [reflexivity|exact H].
Qed.

Definition timer_fin (s : istate) : bool :=
  match i_next s with O => false | S O => false | _ => true end.

Lemma timer_step_tout v d ls s a e s' :
  timer_step v d ls s (TOut a e) = Some s' -> timer_fin s = false /\ timer_fin s' = is_term e.
Proof.
  cbn [timer_step]. intros H. unfold timer_fin.
  destruct (i_next s) as [|[|n]] eqn:En.
  - destruct (ev_eqb e (Next v)) eqn:Ee.
    + destruct (negb (w_unsub (i_w s)) && (a =? w_now (i_w s)) && (d <=? a)); cbn [andb] in H; [|discriminate].
      inversion H; subst s'. cbn [i_next]. rewrite (ev_eqb_is_term _ _ Ee). split; reflexivity.
    + rewrite andb_false_r in H. discriminate.
  - destruct (ev_eqb e Done) eqn:Ee.
    + destruct (negb (w_unsub (i_w s)) && (a =? w_now (i_w s)) && (d <=? a)); cbn [andb] in H; [|discriminate].
      inversion H; subst s'. cbn [i_next]. rewrite (ev_eqb_is_term _ _ Ee). split; reflexivity.
    + rewrite andb_false_r in H. discriminate.
  - rewrite andb_false_r in H. discriminate.
Qed.

Lemma timer_step_other v d ls s x s' :
  (forall a e, x <> TOut a e) -> timer_step v d ls s x = Some s' -> timer_fin s' = timer_fin s.
Proof.
  intros Hx H. destruct x as [a e|b|t sq a|t|j]; cbn [timer_step] in H.
  - exfalso. apply (Hx a e). reflexivity.
  - inversion H; reflexivity.
  - inversion H; reflexivity.
  - inversion H; reflexivity.
  - inversion H; subst s'. reflexivity.
Qed.

Lemma timer_ok_wf v d ls out : timer_ok v d ls out = true -> wf (delivered out) = true.
Proof.
  unfold timer_ok. intros H.
  apply (accepted_walk_wf istate (timer_step v d ls) timer_fin
           (timer_step_tout v d ls) (timer_step_other v d ls) out
           {| i_w := w0 false; i_next := 0; i_earliest := 0 |}); [reflexivity|exact H].
Qed.

Theorem timed_ok_grammar : forall o ls out,
  not_raw o -> timed_ok o ls out = true -> wf (delivered out) = true.
Proof.
  intros o ls out Ho H. destruct o as [d| |d| |d|d ed|d|n d|p|dl p|v d|]; cbn [timed_ok] in H.
  - apply (relay_ok_wf _ _ _ _ H).
  - apply (relay_ok_wf _ _ _ _ H).
  - apply (passthru_ok_wf _ _ _ H).
  - apply (passthru_ok_wf _ _ _ H).
  - apply andb_true_iff in H. destruct H as [H _]. apply (subseq_ok_wf _ _ H).
  - apply andb_true_iff in H. destruct H as [H _]. apply (subseq_ok_wf _ _ H).
  - apply (buffers_ok_wf _ _ _ H).
  - apply (buffers_ok_wf _ _ _ H).
  - apply (interval_ok_wf _ _ _ _ H).
  - apply (interval_ok_wf _ _ _ _ H).
  - apply (timer_ok_wf _ _ _ _ H).
  - contradiction.
Qed.

Theorem timed_meets_spec : forall o ls, not_raw o -> timed_ok o ls (run_timed o ls) = true.
Proof.
  intros o ls Ho. destruct o as [d| |d| |d|d ed|d|n d|p|dl p|v d|]; cbn [timed_ok].
  - apply delay_meets_spec.
  - apply observe_on_meets_spec.
  - apply delay_subscription_meets_spec.
  - apply subscribe_on_meets_spec.
  - apply (debounce_meets_spec d ls).
  - apply (throttle_meets_spec d ed ls).
  - apply buffer_time_meets_spec.
  - apply buffer_count_time_meets_spec.
  - apply interval_meets_spec.
  - apply interval_at_meets_spec.
  - apply timer_meets_spec.
  - contradiction.
Qed.

Theorem timed_grammar : forall o ls, TimedLaws.not_raw o -> wf (delivered (run_timed o ls)) = true.
Proof.
  intros o ls Ho. apply (timed_ok_grammar o ls _ Ho). apply timed_meets_spec. exact Ho.
Qed.

Check timed_grammar : forall o ls, TimedLaws.not_raw o -> wf (delivered (run_timed o ls)) = true.
Check timed_ok_grammar : forall o ls out, not_raw o -> timed_ok o ls out = true -> wf (delivered out) = true.
Check timed_meets_spec : forall o ls, not_raw o -> timed_ok o ls (run_timed o ls) = true.

Print Assumptions timed_grammar.
Print Assumptions timed_ok_grammar.
Print Assumptions timed_meets_spec.

(* ---------- non-vacuity ---------- *)

(* delay 5: the input keeps calling after its completion (an item, an error, a second completion,
   later another item and another error), the tasks are armed at 0, then polled late and out of
   order (the second item's task at 5, the first item's at 8, the completion's at 12), a task that
   does not exist is polled, and every task is polled again after the completion was delivered *)
Definition delay_late_labels : list tlab :=
  [LSrc (Next (VZ 1)); LSrc (Next (VZ 2)); LSrc Done; LSrc (Next (VZ 3)); LSrc (Err 7); LSrc Done;
   LRun 0; LRun 1; LRun 2; LAdv 5; LRun 1; LAdv 3; LRun 0; LSrc (Next (VZ 4)); LRun 3; LAdv 4;
   LRun 2; LRun 0; LRun 1; LRun 2; LSrc (Err 8); LClosed].

Example delay_late_delivered :
  delivered (run_timed (TDelay 5) delay_late_labels) = [Next (VZ 2); Next (VZ 1); Done].
Proof. vm_compute. reflexivity. Qed.

Example delay_late_trace :
  filter (fun x => match x with TMark _ => false | _ => true end) (run_timed (TDelay 5) delay_late_labels)
  = [TOut 5 (Next (VZ 2)); TOut 8 (Next (VZ 1)); TOut 12 Done; TRet true].
Proof. vm_compute. reflexivity. Qed.

(* the completion's task polled first: the items scheduled before it are lost, nothing follows it *)
Example delay_completion_first :
  delivered (run_timed (TDelay 5)
    [LSrc (Next (VZ 1)); LSrc (Next (VZ 2)); LSrc Done; LSrc (Next (VZ 3)); LSrc (Err 7);
     LRun 2; LRun 0; LAdv 9; LRun 1; LRun 2; LSrc (Next (VZ 4)); LRun 0; LRun 1; LRun 2; LRun 3; LSrc Done])
  = [Done].
Proof. vm_compute. reflexivity. Qed.

(* observe_on: the error's task polled before the first item's *)
Example observe_on_error_first :
  delivered (run_timed TObserveOn
    [LSrc (Next (VZ 1)); LSrc (Err 7); LSrc (Next (VZ 2)); LSrc Done; LRun 1; LRun 0; LRun 1; LRun 2])
  = [Err 7].
Proof. vm_compute. reflexivity. Qed.

Example throttle_all_after_terminal :
  delivered (run_timed (TThrottle 5 EAll)
    [LSrc (Next (VZ 1)); LSrc (Next (VZ 2)); LAdv 5; LRun 0; LSrc (Next (VZ 3)); LSrc Done; LRun 1;
     LSrc (Next (VZ 4)); LSrc (Err 1); LRun 0; LRun 1])
  = [Next (VZ 1); Next (VZ 3); Done].
Proof. vm_compute. reflexivity. Qed.

Example timer_polled_again :
  delivered (run_timed (TTimer (VZ 9) 3) [LRun 0; LAdv 3; LRun 0; LRun 0; LUnsub; LRun 0]) = [Next (VZ 9); Done].
Proof. vm_compute. reflexivity. Qed.

Example buffer_count_time_error :
  delivered (run_timed (TBufferCountTime 2 3)
    [LSrc (Next (VZ 1)); LAdv 3; LRun 0; LSrc (Next (VZ 2)); LSrc (Next (VZ 3)); LSrc (Next (VZ 4)); LSrc (Err 2);
     LAdv 3; LRun 0; LSrc Done])
  = [Next (VL [VZ 1]); Next (VL [VZ 2; VZ 3]); Err 2].
Proof. vm_compute. reflexivity. Qed.

Example delay_subscription_after_terminal :
  delivered (run_timed (TDelaySubscription 2)
    [LSrc (Next (VZ 0)); LRun 0; LAdv 2; LRun 0; LSrc (Next (VZ 1)); LSrc Done; LSrc (Next (VZ 2)); LSrc (Err 1); LRun 0])
  = [Next (VZ 1); Done].
Proof. vm_compute. reflexivity. Qed.

(* the grammar predicate is not trivially true of `delivered` *)
Example delivered_wf_rejects :
  wf (delivered [TMark 0; TOut 1 (Next (VZ 1)); TOut 1 Done; TMark 1; TOut 2 (Next (VZ 2))]) = false.
Proof. vm_compute. reflexivity. Qed.

(* ---------- composition with the untimed part of a pipeline ---------- *)

(* a chain of single-input operators behind a scheduler-using operator: the chain is called with the
   operator's deliveries, whatever the labels *)
Theorem timed_then_chain_grammar : forall o ls os,
  not_raw o -> wf (run_hot os (delivered (run_timed o ls))) = true.
Proof.
  intros o ls os Ho. apply ChainLaws.chain_output_wf. apply timed_grammar. exact Ho.
Qed.

(* A scheduler-using operator on top of a pipeline tree: `weave` places the tree's trace as the operator's
   input notifications, with arbitrary other labels (polls, clock advances) in between.  The theorem below
   says nothing about the tree: it is timed_then_chain_grammar at one particular label sequence, written
   out so that the statement of C01 for a pipeline with a timed stage can be read off. *)
Fixpoint weave (src : list ev) (others : list (list tlab)) : list tlab :=
  match src, others with
  | [], _ => concat others
  | e :: r, [] => LSrc e :: weave r []
  | e :: r, o :: os => o ++ LSrc e :: weave r os
  end.

Theorem timed_on_pipeline_grammar : forall o p sts others os,
  not_raw o -> wf (run_hot os (delivered (run_timed o (weave (exec p sts) others)))) = true.
Proof. intros. apply timed_then_chain_grammar. assumption. Qed.

Print Assumptions timed_then_chain_grammar.
Print Assumptions timed_on_pipeline_grammar.
