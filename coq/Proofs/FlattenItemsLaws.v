(* Flattening delivers every item of every inner observable exactly once, in the inner
   observable's own order, and (concat) one inner observable at a time in the outer order. *)
From RxSpec Require Import FlattenItems.
From RxProofs Require Import ValEq FlattenLaws.

Local Open Scope nat_scope.

Fixpoint items_run (sts : list fstim) (w : istate) (o : list fout) : option istate :=
  match o with
  | [] => Some w
  | x :: r => match items_step sts w x with Some w' => items_run sts w' r | None => None end
  end.

Lemma items_run_app sts a : forall w b,
  items_run sts w (a ++ b) = match items_run sts w a with Some w' => items_run sts w' b | None => None end.
Proof.
  induction a as [|x a IH]; intros w b; [reflexivity|]. cbn [app items_run].
  destruct (items_step sts w x) as [w'|]; [apply IH|reflexivity].
Qed.

Lemma items_walk_app sts a : forall w b,
  items_walk sts w (a ++ b) = match items_run sts w a with Some w' => items_walk sts w' b | None => false end.
Proof.
  induction a as [|x a IH]; intros w b; [reflexivity|]. cbn [app items_run items_walk].
  destruct (items_step sts w x) as [w'|]; [apply IH|reflexivity].
Qed.

Lemma filter_absorb {A} (f g : A -> bool) l :
  (forall x, In x l -> f x = true -> g x = true) -> filter f (filter g l) = filter f l.
Proof.
  induction l as [|x l IH]; intros H; [reflexivity|]. cbn [filter].
  assert (IH' : filter f (filter g l) = filter f l) by (apply IH; intros y Hy; apply H; right; exact Hy).
  destruct (g x) eqn:Eg; cbn [filter].
  - rewrite IH'. reflexivity.
  - destruct (f x) eqn:Ef; [|exact IH']. rewrite (H x (or_introl eq_refl) Ef) in Eg. discriminate.
Qed.

Lemma filter_weaken {A} (f g : A -> bool) l l' :
  (forall x, f x = true -> g x = true) -> filter g l = filter g l' -> filter f l = filter f l'.
Proof. intros H E. rewrite <- (filter_absorb f g l), <- (filter_absorb f g l'), E by auto. reflexivity. Qed.

Lemma nth_error_mid {A} (pre : list A) x r : nth_error (pre ++ x :: r) (length pre) = Some x.
Proof. rewrite nth_error_app2 by lia. rewrite Nat.sub_diag. reflexivity. Qed.

Lemma nth_error_app_keep {A} (l r : list A) k x : nth_error l k = Some x -> nth_error (l ++ r) k = Some x.
Proof.
  intros H. rewrite nth_error_app1; [exact H|]. apply nth_error_Some. rewrite H. discriminate.
Qed.

(* p = (subject, inner observable) is a subscription to a subject that is not among the terminated ones hd *)
Definition not_done (hd : list nat) (p : nat * nat) : bool := negb (memn (fst p) hd).

(* the queue q holds exactly the inner observables number lo, lo+1, .., hi-1, in this order *)
Fixpoint qconsec (lo hi : nat) (q : list (nat * iobs)) : Prop :=
  match q with
  | [] => lo = hi
  | (k, _) :: r => k = lo /\ qconsec (S lo) hi r
  end.

(* The walk forgets a subscription when it sees FInnerDone, the operator when the subject
   terminates: the two lists agree on the subjects that have not terminated. *)
Record Rel (w : istate) (s : fstate) : Prop := {
  r_alive : f_alive s = true;
  r_fin : i_finished w = false;
  r_unsub : i_unsub w = false;
  r_hd : i_hot_done w = f_hot_done s;
  r_next : length (i_arrived w) = f_next s;
  (* what waits, what the operator holds subscribed and what the walk has seen subscribed are
     the inner observables that arrived under these numbers *)
  r_queue : forall k i, In (k, i) (f_queue s) -> nth_error (i_arrived w) k = Some i;
  r_held : forall id k, In (id, k) (f_active s) -> nth_error (i_arrived w) k = Some (IHot id);
  r_seen : forall id k, In (id, k) (i_active w) -> nth_error (i_arrived w) k = Some (IHot id);
  r_agree : filter (not_done (i_hot_done w)) (i_active w) = filter (not_done (i_hot_done w)) (f_active s)
}.

(* the waiting inner observables are exactly those that arrived and were not subscribed *)
Definition Waiting (w : istate) (s : fstate) : Prop := qconsec (i_nsub w) (f_next s) (f_queue s).

(* between two pieces of a segment *)
Definition After (w : istate) (s : fstate) : Prop :=
  i_expect w = [] /\ (if f_alive s then Rel w s /\ Waiting w s else i_finished w = true).

(* what a piece of a segment leaves alone in the walking state *)
Definition Frame (w w' : istate) : Prop :=
  i_mark w' = i_mark w /\ i_arrived w' = i_arrived w /\ i_outer_live w' = i_outer_live w /\
  i_unsub w' = i_unsub w /\ i_hot_done w' = i_hot_done w.

(* The walk accepts o from w, changes nothing there that only a marker may change, and ends in a
   state that matches the operator's state s' again. *)
Definition Piece (sts : list fstim) (w : istate) (o : list fout) (s' : fstate) : Prop :=
  exists w', items_run sts w o = Some w' /\ Frame w w' /\ After w' s'.

Lemma piece_nil sts w s : After w s -> Piece sts w [] s.
Proof. intros A. exists w. split; [reflexivity|]. split; [repeat split|exact A]. Qed.

Lemma piece_app sts w o1 w1 o2 s' :
  items_run sts w o1 = Some w1 -> Frame w w1 -> Piece sts w1 o2 s' -> Piece sts w (o1 ++ o2) s'.
Proof.
  intros E (A1 & A2 & A3 & A4 & A5) (w2 & E2 & (B1 & B2 & B3 & B4 & B5) & A). exists w2. rewrite items_run_app, E.
  split; [exact E2|]. split; [|exact A]. repeat split; etransitivity; eassumption.
Qed.

Lemma piece_cons sts w o w1 out s' :
  items_step sts w o = Some w1 -> Frame w w1 -> Piece sts w1 out s' -> Piece sts w (o :: out) s'.
Proof. intros E. apply (piece_app sts w [o]). cbn [items_run]. rewrite E. reflexivity. Qed.

Lemma after_dead w s : i_expect w = [] -> f_alive s = false -> i_finished w = true -> After w s.
Proof. intros He Ha Hf. split; [exact He|]. rewrite Ha. exact Hf. Qed.

Lemma after_live w s : i_expect w = [] -> Rel w s -> Waiting w s -> After w s.
Proof. intros He R Q. split; [exact He|]. rewrite (r_alive _ _ R). split; assumption. Qed.

Lemma piece_term sts w e s : i_expect w = [] -> f_alive s = false -> Piece sts w [FTerm e] s.
Proof.
  intros He Ha. apply (piece_cons sts w _ (set_finished w)); [unfold items_step; rewrite He; reflexivity|repeat split|].
  apply piece_nil, after_dead; auto.
Qed.

(* owed items arrive; what is left is owed by the same walking state *)
Lemma piece_items sts {A} (kf : A -> nat) (vf : A -> val) out s' : forall l w rest,
  i_expect w = map (fun a => XItem (kf a) (vf a)) l ++ rest ->
  Piece sts (set_expect w rest) out s' ->
  Piece sts w (map (fun a => FItem (kf a) (vf a)) l ++ out) s'.
Proof.
  induction l as [|a l IH]; intros w rest He P.
  - cbn [map app] in He. subst rest. destruct w. exact P.
  - apply (piece_cons sts w _ (set_expect w (map (fun a => XItem (kf a) (vf a)) l ++ rest))); [|repeat split|].
    + unfold items_step. rewrite He. cbn [map app exp_match]. rewrite Nat.eqb_refl, val_eqb_refl. reflexivity.
    + apply (IH (set_expect w (map (fun a => XItem (kf a) (vf a)) l ++ rest)) rest eq_refl). exact P.
Qed.

(* the walk lets the k-th inner observable complete: the completion is owed (synchronous: the
   script said Done) or possible (hot: its subject has terminated) *)
Definition MayComplete (w : istate) (k : nat) : Prop :=
  (i_expect w = [XDone k] /\ exists sc, nth_error (i_arrived w) k = Some (ICold sc)) \/
  (i_expect w = [] /\ exists id, nth_error (i_arrived w) k = Some (IHot id) /\ memn id (i_hot_done w) = true).

(* forgetting the k-th inner observable changes nothing among the subscriptions of live subjects:
   the subject it listens to, if any, has terminated *)
Lemma Rel_done w s k : Rel w s -> MayComplete w k -> Rel (set_expect (observe w (FInnerDone k)) []) s.
Proof.
  intros R D.
  assert (Hk : forall id, In (id, k) (i_active w) -> memn id (i_hot_done w) = true).
  { intros id Hin. pose proof (r_seen _ _ R _ _ Hin) as Hn.
    destruct D as [[_ [sc Hs]]|[_ [id' [Hs Hm]]]]; rewrite Hs in Hn; [discriminate|]. injection Hn as <-. exact Hm. }
  destruct R as [R1 R2 R3 R4 R5 R6 R7 R8 R9]. constructor; auto; cbn.
  - intros id0 k0 Hin. apply filter_In in Hin. apply R8, Hin.
  - rewrite filter_absorb; [exact R9|]. intros [id' k'] Hin Hnd. cbn [snd].
    destruct (Nat.eqb_spec k' k) as [->|Hne]; [|reflexivity].
    unfold not_done in Hnd. cbn [fst] in Hnd. rewrite (Hk _ Hin) in Hnd. discriminate.
Qed.

Lemma piece_done sts w k out s' :
  MayComplete w k ->
  Piece sts (set_expect (observe w (FInnerDone k)) []) out s' -> Piece sts w (FInnerDone k :: out) s'.
Proof.
  intros D P. refine (piece_cons sts w _ _ out s' _ _ P); [|repeat split].
  unfold items_step. destruct D as [[He _]|[He [id [Hs _]]]]; rewrite He.
  - cbn [exp_match]. rewrite Nat.eqb_refl. reflexivity.
  - (* observe builds the record anew: with the old expectation put back both sides are the same *)
    rewrite Hs, <- He. reflexivity.
Qed.

Lemma piece_sub sts w s k i out s' :
  Rel w s -> i_expect w = [] -> k = i_nsub w -> nth_error (i_arrived w) k = Some i ->
  Piece sts (set_nsub (match i with
                       | IHot id => set_active w (i_active w ++ [(id, k)])
                       | ICold sc => set_expect w (cold_expect k sc)
                       end) (S k)) out s' ->
  Piece sts w (FSubscribed k :: out) s'.
Proof.
  intros R He Hk Hn P. refine (piece_cons sts w _ _ out s' _ _ P); [|destruct i; repeat split].
  unfold items_step. rewrite He, (r_fin _ _ R), (r_unsub _ _ R), Hn, <- Hk, Nat.eqb_refl. destruct i; reflexivity.
Qed.

(* the k-th inner observable to arrive is subscribed next, with nothing owed; those behind it wait *)
Definition SubPiece (sts : list fstim) (s : fstate) (k : nat) (i : iobs) (r : fstate * list fout) : Prop :=
  forall w, Rel w s -> i_expect w = [] -> k = i_nsub w -> nth_error (i_arrived w) k = Some i ->
            qconsec (S k) (f_next s) (f_queue s) -> Piece sts w (snd r) (fst r).

Definition DonePiece (sts : list fstim) (s : fstate) (k : nat) (r : fstate * list fout) : Prop :=
  forall w, Rel w s -> Waiting w s -> MayComplete w k -> Piece sts w (snd r) (fst r).

Lemma cascade_piece sts : forall fuel, Cascade (SubPiece sts) (DonePiece sts) fuel.
Proof.
  apply cascade_ind; unfold SubPiece, DonePiece; cbn [fst snd].
  - intros s k id _ w R He Hk Hn Hq. apply (piece_sub sts w s k _ _ _ R He Hk Hn).
    apply piece_nil, after_live; [exact He| |exact Hq].
    destruct R as [R1 R2 R3 R4 R5 R6 R7 R8 R9]. constructor; auto; cbn.
    + intros id0 k0 Hin. apply in_app_or in Hin. destruct Hin as [Hin|[Hin|[]]]; [auto|]. congruence.
    + intros id0 k0 Hin. apply in_app_or in Hin. destruct Hin as [Hin|[Hin|[]]]; [auto|]. congruence.
    + rewrite !filter_app, R9. reflexivity.
  - intros s k sc c _ Hc w R He Hk Hn Hq. apply (piece_sub sts w s k _ _ _ R He Hk Hn).
    apply (piece_items sts (fun _ => k) (fun v => v) _ _ (items_of sc) (set_nsub (set_expect w (cold_expect k sc)) (S k))
             (closing k sc) eq_refl).
    set (w2 := set_expect _ (closing k sc)).
    assert (R2 : Rel w2 s) by (destruct R; constructor; assumption).
    unfold closing in w2. destruct (term_of sc) as [| |e]; [subst c| |subst c].
    + apply piece_nil, after_live; [reflexivity|exact R2|exact Hq].
    + apply (Hc w2 R2 Hq). left. split; [reflexivity|]. exists sc. exact Hn.
    + apply (piece_cons sts w2 _ (set_finished (set_expect w2 []))); [|repeat split|apply piece_nil, after_dead; reflexivity].
      unfold items_step. cbn. rewrite Z.eqb_refl. reflexivity.
  - intros s k _ Eq w R Q D. pose proof (Rel_done w s k R D) as R1.
    unfold release_slot. cbn [f_subscribed upd_subscribed f_outside_completed].
    destruct (Nat.eqb (pred (f_subscribed s)) 0 && f_outside_completed s); cbn [fst snd]; apply (piece_done sts w k _ _ D).
    + apply piece_term; reflexivity.
    + apply piece_nil, after_live; [reflexivity| |exact Q]. destruct R1. constructor; assumption.
  - intros s k k' i' q r _ Eq HS w R Q D. apply (piece_done sts w k _ _ D). pose proof (Rel_done w s k R D) as R1.
    unfold Waiting in Q. rewrite Eq in Q. destruct Q as [Hk' Q].
    apply HS; [|reflexivity|exact Hk'| |rewrite Hk'; exact Q].
    + destruct R1 as [A1 A2 A3 A4 A5 A6 A7 A8 A9]. constructor; auto.
      intros k0 i0 Hin. apply A6. rewrite Eq. right. exact Hin.
    + apply (r_queue _ _ R1). rewrite Eq. left. reflexivity.
Qed.

Definition HotDoneTargets (w : istate) (ts : list nat) : Prop :=
  forall k, In k ts -> exists id, nth_error (i_arrived w) k = Some (IHot id) /\ memn id (i_hot_done w) = true.

Lemma hot_done_piece sts : forall ts w s,
  After w s -> HotDoneTargets w ts ->
  Piece sts w (snd (hot_event s ts Done)) (fst (hot_event s ts Done)).
Proof.
  induction ts as [|k r IH]; intros w s A HT; [apply piece_nil, A|].
  destruct (f_alive s) eqn:Ha; [|rewrite hot_event_dead by exact Ha; apply piece_nil, A].
  cbn [hot_event]. destruct A as [He HA]. rewrite Ha in HA. destruct HA as [R Q].
  assert (P1 : Piece sts w (snd (inner_done s k)) (fst (inner_done s k))).
  { apply (proj2 (cascade_piece sts _)); [exact Ha|lia|exact R|exact Q|].
    right. split; [exact He|]. apply HT. left. reflexivity. }
  destruct (inner_done s k) as [s1 o1]. destruct P1 as (w1 & E1 & F1 & A1).
  specialize (IH w1 s1 A1). destruct (hot_event s1 r Done) as [s2 o2].
  apply (piece_app sts w o1 w1 o2 s2 E1 F1), IH.
  destruct F1 as (_ & F2 & _ & _ & F5). intros k0 Hk0. rewrite F2, F5. apply HT. right. exact Hk0.
Qed.

(* case analysis on every condition of an `if` in the goal: for the facts below, which say what a
   field of apply_mark w st is whichever branch apply_mark takes *)
Ltac split_ifs :=
  repeat match goal with |- context [if ?b then _ else _] => destruct b eqn:? end.

Lemma apply_mark_keeps w st :
  i_mark (apply_mark w st) = i_mark w /\ i_nsub (apply_mark w st) = i_nsub w /\
  i_finished (apply_mark w st) = i_finished w.
Proof. unfold apply_mark. destruct st as [[i|x|]|id [v|x|]|]; split_ifs; auto. Qed.

Lemma apply_mark_reached w st :
  i_unsub w = false -> reaches (i_outer_live w) st ->
  i_unsub (apply_mark w st) = false /\ i_outer_live (apply_mark w st) = live_after (i_outer_live w) st.
Proof.
  intros Hu Hst. unfold apply_mark. rewrite Hu. destruct st as [[i|x|]|id e|]; cbn [reaches] in Hst; [rewrite Hst..| |destruct Hst].
  - destruct (i_finished w); auto.
  - auto.
  - auto.
  - destruct (memn id (i_hot_done w)); [auto|]. destruct e; [destruct (i_finished w)|..]; auto.
Qed.

Lemma apply_mark_outer_dead w e : i_unsub w = false -> i_outer_live w = false -> apply_mark w (FOuter e) = w.
Proof. intros Hu Hl. unfold apply_mark. rewrite Hu, Hl. reflexivity. Qed.

Lemma apply_mark_finished w st :
  i_finished w = true -> i_expect w = [] -> i_expect (apply_mark w st) = [].
Proof.
  intros Hf He. unfold apply_mark. rewrite Hf.
  destruct st as [[i|x|]|id [v|x|]|]; split_ifs; cbn; auto.
Qed.

Lemma qconsec_snoc q : forall lo hi i, qconsec lo hi q -> qconsec lo (S hi) (q ++ [(hi, i)]).
Proof.
  induction q as [|[k i0] q IH]; intros lo hi i H; cbn [qconsec app] in *.
  - subst. split; reflexivity.
  - destruct H as [Hk H]. split; [exact Hk|]. apply IH, H.
Qed.

Lemma targets_agree w s id :
  Rel w s -> memn id (i_hot_done w) = false ->
  filter (fun p => Nat.eqb (fst p) id) (i_active w) = filter (fun p => Nat.eqb (fst p) id) (f_active s).
Proof.
  intros R Hm. apply (filter_weaken _ (not_done (i_hot_done w))); [|apply (r_agree _ _ R)].
  intros p Hp. apply Nat.eqb_eq in Hp. unfold not_done. rewrite Hp, Hm. reflexivity.
Qed.

(* the subject id terminates: the operator drops its subscriptions at once *)
Lemma Rel_hot_term w s id :
  Rel w s ->
  Rel (set_hot_done w (id :: i_hot_done w))
      (upd_hot_done (upd_active s (filter (fun p => negb (Nat.eqb (fst p) id)) (f_active s))) (id :: f_hot_done s)).
Proof.
  intros [R1 R2 R3 R4 R5 R6 R7 R8 R9]. constructor; auto; cbn.
  - congruence.
  - intros id0 k0 Hin. apply filter_In in Hin. apply R7, Hin.
  - assert (H : forall p, not_done (id :: i_hot_done w) p = true ->
                          negb (Nat.eqb (fst p) id) = true /\ not_done (i_hot_done w) p = true)
      by (intros p Hp; unfold not_done, memn in *; cbn [existsb] in Hp;
          apply Bool.negb_true_iff, Bool.orb_false_iff in Hp; destruct Hp as [H1 H2]; rewrite H1, H2; auto).
    rewrite filter_absorb by (intros p _ Hp; apply H, Hp).
    apply (filter_weaken _ (not_done (i_hot_done w))); [intros p Hp; apply H, Hp|exact R9].
Qed.

Lemma fstep_piece n sts w s st :
  (f_alive s = true -> Inv n s) -> After w s -> i_unsub w = false ->
  reaches (i_outer_live w) st ->
  Piece sts (apply_mark w st) (snd (fstep n s st)) (fst (fstep n s st)).
Proof.
  intros HI [He HA] Hu Hst. destruct (f_alive s) eqn:Ha.
  2: { destruct (fstep_dead n s st Ha) as [E1 E2]. rewrite E1. apply piece_nil, after_dead.
       - apply apply_mark_finished; assumption.
       - exact E2.
       - rewrite (proj2 (proj2 (apply_mark_keeps w st))). exact HA. }
  destruct HA as [R Q]. pose proof (r_fin _ _ R) as Hfin.
  unfold apply_mark. rewrite Hu.
  destruct st as [[i|x|]|id e|]; cbn [reaches] in Hst; [rewrite Hst..| |destruct Hst]; cbn [fstep]; rewrite ?Ha.
  - (* the outer stream emits an inner observable: it arrives as number f_next s *)
    rewrite Hfin. cbn [upd_next f_subscribed f_queue]. set (w0 := set_arrived w (i_arrived w ++ [i])).
    assert (R0 : Rel w0 (upd_next s)).
    { destruct R as [R1 R2 R3 R4 R5 R6 R7 R8 R9]. constructor; auto; cbn;
        [rewrite last_length; congruence|..]; intros ? ? Hin; apply nth_error_app_keep; auto. }
    assert (Hnew : nth_error (i_arrived w0) (f_next s) = Some i)
      by (cbn; rewrite <- (r_next _ _ R); apply nth_error_mid).
    destruct (below_limit n (f_subscribed s)) eqn:Eb.
    + (* a free slot, so nobody waits *)
      assert (Eq : f_queue s = []).
      { destruct (f_queue s) eqn:Eq; [reflexivity|]. rewrite (inv_full _ _ (HI eq_refl)) in Eb; [|rewrite Eq]; discriminate. }
      unfold Waiting in Q. rewrite Eq in Q. cbn [qconsec] in Q.
      apply (proj1 (cascade_piece sts _)); [exact Ha|cbn; lia| |exact He|cbn; congruence|exact Hnew|cbn; rewrite Eq; reflexivity].
      destruct R0. constructor; assumption.
    + apply piece_nil, after_live; [exact He| |unfold Waiting; cbn; apply qconsec_snoc, Q].
      destruct R0 as [R1 R2 R3 R4 R5 R6 R7 R8 R9]. constructor; auto.
      cbn. intros k0 i0 Hin. apply in_app_or in Hin. destruct Hin as [Hin|[Hin|[]]]; [apply R6, Hin|].
      injection Hin as <- <-. exact Hnew.
  - apply piece_term; auto.
  - cbn [upd_outside f_subscribed f_queue].
    destruct (Nat.eqb (f_subscribed s) 0 && match f_queue s with [] => true | _ => false end).
    + apply piece_term; auto.
    + apply piece_nil, after_live; [exact He| |exact Q]. destruct R. constructor; assumption.
  - rewrite <- (r_hd _ _ R). destruct (memn id (i_hot_done w)) eqn:Em; [apply piece_nil, after_live; assumption|].
    pose proof (Rel_hot_term w s id R) as Rt. rewrite <- (r_hd _ _ R) in Rt.
    pose proof (after_live (set_hot_done w (id :: i_hot_done w)) _ He Rt Q) as At.
    destruct e as [v|x|]; cbn [is_term].
    + (* an item: one per subscription, in subscription order *)
      rewrite Hfin, hot_next_out, Ha, map_map, <- (targets_agree w s id R Em). cbn [fst snd].
      set (l := filter (fun p : nat * nat => Nat.eqb (fst p) id) (i_active w)). rewrite <- (app_nil_r (map (fun p => FItem (snd p) v) l)).
      apply (piece_items sts snd (fun _ => v) [] s l (set_expect w (map (fun p => XItem (snd p) v) l)) [] (eq_sym (app_nil_r _))).
      apply piece_nil, after_live; [reflexivity| |exact Q]. destruct R. constructor; assumption.
    + (* failure of the subject: its first observer, if any, takes the output down *)
      destruct (map snd (filter (fun p => Nat.eqb (fst p) id) (f_active s))) as [|k ts]; [apply piece_nil, At|].
      rewrite hot_err_out by exact Ha. apply piece_term; auto.
    + (* completion of the subject: each of its observers completes *)
      apply hot_done_piece; [exact At|].
      intros k Hk. apply in_map_iff in Hk. destruct Hk as ([id0 k0] & <- & Hin).
      apply filter_In in Hin. destruct Hin as [Hin Hid]. apply Nat.eqb_eq in Hid. cbn [fst] in Hid. subst id0.
      exists id. split; [apply (r_held _ _ R), Hin|]. cbn. rewrite Nat.eqb_refl. reflexivity.
Qed.

Lemma walk_mark sts pre st r w out :
  sts = pre ++ st :: r -> i_expect w = [] -> i_mark w = length pre ->
  items_walk sts w (FMark (length pre) :: out) = items_walk sts (apply_mark (set_mark w (S (length pre))) st) out.
Proof.
  intros Hs He Hm. cbn [items_walk]. unfold items_step. rewrite He, Hm, Nat.eqb_refl, Hs, nth_error_mid. reflexivity.
Qed.

(* after unsubscribe() only markers follow, and every stimulus still gets its marker *)
Lemma unsub_walk sts : forall r pre w,
  sts = pre ++ r -> i_unsub w = true -> i_expect w = [] -> i_mark w = length pre ->
  items_walk sts w (map FMark (seq (length pre) (length r))) = true.
Proof.
  induction r as [|st r IH]; intros pre w Hs Hu He Hm.
  - cbn. unfold items_end_ok. rewrite He, Hm, Hs, app_nil_r. apply Nat.eqb_refl.
  - cbn [length seq map]. rewrite (walk_mark sts pre st r w _ Hs He Hm).
    unfold apply_mark. cbn [i_unsub set_mark]. rewrite Hu, <- (last_length pre st).
    apply IH; [rewrite <- app_assoc; exact Hs|exact Hu|exact He|reflexivity].
Qed.

Lemma after_set_mark w s j : After w s -> After (set_mark w j) s.
Proof.
  intros [He HA]. split; [exact He|]. destruct (f_alive s); [|exact HA].
  destruct HA as [[]]. split; [constructor|]; assumption.
Qed.

Definition RunWalk (n : option nat) (whole : list fstim) (s : fstate) (live : bool) (j : nat) (sts : list fstim)
    (out : list fout) : Prop :=
  forall pre b w, whole = pre ++ sts -> j = length pre -> reach n s b -> After w s -> i_unsub w = false ->
                  i_outer_live w = live -> i_mark w = j -> items_walk whole w out = true.

Theorem frun_walk n (V : valid_limit n) whole : forall sts s live j, RunWalk n whole s live j sts (frun n s live j sts).
Proof.
  apply frun_ind; unfold RunWalk.
  - intros s live j pre b w Hs -> _ [He _] _ _ Hm. cbn. unfold items_end_ok. rewrite He, Hm, Hs, app_nil_r. apply Nat.eqb_refl.
  - intros s live j r pre b w Hs -> _ [He _] Hu _ Hm. cbn [length seq map]. rewrite (walk_mark whole pre _ r w _ Hs He Hm).
    unfold apply_mark. cbn [i_unsub set_mark]. rewrite Hu, <- (last_length pre FUnsub).
    apply unsub_walk; [rewrite <- app_assoc; exact Hs|reflexivity|exact He|reflexivity].
  - intros s j e r out IH pre b w Hs -> Rch A Hu Hl Hm. rewrite (walk_mark whole pre _ r w _ Hs (proj1 A) Hm).
    rewrite (apply_mark_outer_dead (set_mark w (S (length pre))) e Hu Hl).
    apply (IH (pre ++ [FOuter e]) b); auto using after_set_mark; [rewrite <- app_assoc; exact Hs|symmetry; apply last_length].
  - intros s live j st r out Hst IH pre b w Hs -> Rch A Hu <- Hm. rewrite (walk_mark whole pre st r w _ Hs (proj1 A) Hm).
    destruct (fstep_piece n whole (set_mark w (S (length pre))) s st) as (w' & E & (F1 & _ & F3 & F4 & _) & A');
      [intros Ha; exact (proj1 (reach_good n V s b Rch Ha))|apply after_set_mark, A|exact Hu|exact Hst|].
    rewrite items_walk_app, E. eapply (IH (pre ++ [st]) _ w').
    + rewrite <- app_assoc. exact Hs.
    + symmetry. apply last_length.
    + apply reach_step, Rch.
    + exact A'.
    + rewrite F4. exact (proj1 (apply_mark_reached (set_mark w (S (length pre))) st Hu Hst)).
    + rewrite F3. exact (proj2 (apply_mark_reached (set_mark w (S (length pre))) st Hu Hst)).
    + rewrite F1. exact (proj1 (apply_mark_keeps (set_mark w (S (length pre))) st)).
Qed.

(* Every item of every inner observable is delivered exactly once, in the inner observable's
   own order, tagged with the inner observable it came from, and nothing else is delivered. *)
Theorem flatten_items_exact :
  forall n sts, valid_limit n -> items_exact_ok n sts (run_flatten n sts) = true.
Proof.
  intros n sts V. apply (frun_walk n V sts sts fstate0 true 0 [] 0 istate0); auto; [apply reach0|].
  split; [reflexivity|]. cbn. split; [|reflexivity]. constructor; cbn; auto; intros ? ? [].
Qed.

Lemma step_nsub sts w o w' :
  items_step sts w o = Some w' ->
  match o with
  | FSubscribed k => k = i_nsub w /\ i_nsub w' = S k
  | _ => i_nsub w' = i_nsub w
  end.
Proof.
  unfold items_step. destruct (i_expect w) as [|x xs].
  - destruct o as [k v|e|k|k|  |j]; intros H; try discriminate.
    + injection H as <-. reflexivity.
    + destruct (i_finished w || i_unsub w); [discriminate|].
      destruct (Nat.eqb_spec k (i_nsub w)) as [Ek|Ek]; cbn [negb] in H; [|discriminate].
      destruct (nth_error (i_arrived w) k) as [[sc|id]|]; [| |discriminate]; injection H as <-; split; auto.
    + destruct (nth_error (i_arrived w) k) as [[sc|id]|]; try discriminate. injection H as <-. reflexivity.
    + destruct (Nat.eqb j (i_mark w)); [|discriminate].
      destruct (nth_error sts j) as [st|]; [|discriminate]. injection H as <-. exact (proj1 (proj2 (apply_mark_keeps (set_mark w (S j)) st))).
  - destruct (exp_match x o) eqn:Em; intros H; [|discriminate]. injection H as <-.
    destruct o as [k v|e|k|k|  |j]; try reflexivity. destruct x; discriminate.
Qed.

Lemma walk_subs_consecutive sts : forall out w,
  items_walk sts w out = true -> subs_consecutive (i_nsub w) out = true.
Proof.
  induction out as [|o r IH]; intros w H; [reflexivity|]. cbn [items_walk] in H.
  destruct (items_step sts w o) as [w'|] eqn:E; [|discriminate].
  pose proof (step_nsub sts w o w' E) as Hn. specialize (IH w' H).
  destruct o as [k v|e|k|k|  |j]; cbn [subs_consecutive]; try (rewrite <- Hn; exact IH).
  destruct Hn as [Hk Hn]. rewrite Hn in IH. rewrite <- Hk, Nat.eqb_refl. exact IH.
Qed.

Lemma consecutive_increasing : forall out next lo,
  lo <= next -> subs_consecutive next out = true -> subs_increasing lo out = true.
Proof.
  induction out as [|o r IH]; intros next lo Hle H; [reflexivity|].
  destruct o as [k v|e|k|k|  |j]; cbn [subs_consecutive subs_increasing] in *; try (eapply IH; eassumption).
  apply andb_prop in H. destruct H as [Hk H]. apply Nat.eqb_eq in Hk. subst k.
  apply andb_true_intro. split; [apply Nat.leb_le; exact Hle|]. apply (IH (S next)); [lia|exact H].
Qed.

(* The inner observables are subscribed exactly in the order in which the outer stream
   emitted them, each one once: FSubscribed 0, FSubscribed 1, ... (every limit). *)
Theorem flatten_subs_consecutive :
  forall n sts, valid_limit n -> subs_consecutive 0 (run_flatten n sts) = true.
Proof.
  intros n sts V. apply (walk_subs_consecutive sts (run_flatten n sts) istate0).
  apply (flatten_items_exact n sts V).
Qed.

Theorem flatten_subs_increasing :
  forall n sts, valid_limit n -> subs_increasing 0 (run_flatten n sts) = true.
Proof.
  intros n sts V. apply (consecutive_increasing _ 0 0); [lia|]. apply flatten_subs_consecutive, V.
Qed.

(* at most one slot is taken, and a hot inner observable holding it is the current one *)
Definition CInv (cur : option nat) (s : fstate) : Prop :=
  f_subscribed s = (match cur with Some _ => 1 | None => 0 end) /\
  (f_active s = [] \/ exists id k, cur = Some k /\ f_active s = [(id, k)]).

Definition CGood (cur : option nat) (s : fstate) : Prop := f_alive s = true -> CInv cur s.

Definition CPiece (cur : option nat) (o : list fout) (s' : fstate) : Prop :=
  exists cur', (forall rest, concat_walk cur (o ++ rest) = concat_walk cur' rest) /\ CGood cur' s'.

(* a slot was just taken and no hot inner observable holds it *)
Definition CReady (s : fstate) : Prop := f_alive s = true /\ f_subscribed s = 1 /\ f_active s = [].

Lemma cpiece_app cur o cur1 out s' :
  (forall rest, concat_walk cur (o ++ rest) = concat_walk cur1 rest) -> CPiece cur1 out s' -> CPiece cur (o ++ out) s'.
Proof. intros H (c2 & H2 & G). exists c2. split; [|exact G]. intros rest. rewrite <- app_assoc, H. apply H2. Qed.

Lemma cpiece_cons cur o cur1 out s' :
  (forall rest, concat_walk cur (o :: rest) = concat_walk cur1 rest) -> CPiece cur1 out s' -> CPiece cur (o :: out) s'.
Proof. apply (cpiece_app cur [o]). Qed.

Lemma cpiece_nil cur s : CGood cur s -> CPiece cur [] s.
Proof. intros G. exists cur. split; [reflexivity|exact G]. Qed.

Lemma cpiece_term cur e s : f_alive s = false -> CPiece cur [FTerm e] s.
Proof. intros Ha. apply (cpiece_cons _ _ cur); [reflexivity|]. apply cpiece_nil. intros H. congruence. Qed.

Lemma cwalk_done k rest : concat_walk (Some k) (FInnerDone k :: rest) = concat_walk None rest.
Proof. cbn [concat_walk]. rewrite Nat.eqb_refl. reflexivity. Qed.

Lemma cwalk_items k vs rest : concat_walk (Some k) (map (FItem k) vs ++ rest) = concat_walk (Some k) rest.
Proof. induction vs as [|v vs IH]; [reflexivity|]. cbn [map app concat_walk]. rewrite Nat.eqb_refl. exact IH. Qed.

(* whatever was current, the inner observable being subscribed becomes current, and stays so
   until it completes *)
Definition SubConcat (s : fstate) (k : nat) (i : iobs) (r : fstate * list fout) : Prop :=
  CReady s -> forall cur, CPiece cur (snd r) (fst r).

Definition DoneConcat (s : fstate) (k : nat) (r : fstate * list fout) : Prop :=
  CReady s -> CPiece (Some k) (snd r) (fst r).

Lemma cascade_concat : forall fuel, Cascade SubConcat DoneConcat fuel.
Proof.
  apply cascade_ind; unfold SubConcat, DoneConcat; cbn [fst snd].
  - intros s k id _ (_ & Hs & Hact) cur. apply (cpiece_cons _ _ (Some k)); [reflexivity|].
    apply cpiece_nil. intros _. split; [exact Hs|]. right. exists id, k. cbn. rewrite Hact. auto.
  - intros s k sc c _ Hc Rdy cur. apply (cpiece_cons _ _ (Some k)); [reflexivity|].
    apply (cpiece_app _ _ (Some k)); [apply cwalk_items|]. destruct (term_of sc) as [| |e]; [subst c|exact (Hc Rdy)|subst c].
    + apply cpiece_nil. intros _. destruct Rdy as (_ & Hs & Hact). split; [exact Hs|left; exact Hact].
    + apply cpiece_term. reflexivity.
  - intros s k _ Eq (_ & Hs & Hact). unfold release_slot. cbn [f_subscribed upd_subscribed f_outside_completed]. rewrite Hs.
    change (Nat.eqb (pred 1) 0) with true. cbn [andb].
    destruct (f_outside_completed s); cbn [fst snd]; (apply (cpiece_cons _ _ None); [intros rest; apply cwalk_done|]).
    + apply cpiece_term. reflexivity.
    + apply cpiece_nil. intros _. split; [reflexivity|left; exact Hact].
  - intros s k k' i' q r _ Eq HS Rdy. apply (cpiece_cons _ _ None); [intros rest; apply cwalk_done|]. apply HS, Rdy.
Qed.

Lemma cfstep s st cur :
  CGood cur s -> CPiece cur (snd (fstep (Some 1) s st)) (fst (fstep (Some 1) s st)).
Proof.
  intros G. destruct (f_alive s) eqn:Ha.
  2: { destruct (fstep_dead (Some 1) s st Ha) as [E1 E2]. rewrite E1. apply cpiece_nil. intros H. congruence. }
  specialize (G Ha).
  destruct st as [[i|x|]|id e|]; cbn [fstep]; rewrite ?Ha.
  - (* the outer stream emits an inner observable: it starts if the slot is free *)
    cbn [upd_next f_subscribed f_queue below_limit]. destruct G as [Hs Hact]. rewrite Hs. destruct cur as [c|].
    + change (Nat.ltb 1 1) with false. apply cpiece_nil. intros _. split; assumption.
    + change (Nat.ltb 0 1) with true. apply (proj1 (cascade_concat _)); [exact Ha|cbn; lia|].
      destruct Hact as [Hact|(id & k & Hc & _)]; [repeat split; assumption|discriminate].
  - apply cpiece_term. reflexivity.
  - cbn [upd_outside f_subscribed f_queue].
    destruct (Nat.eqb (f_subscribed s) 0 && match f_queue s with [] => true | _ => false end).
    + apply cpiece_term. reflexivity.
    + apply cpiece_nil. intros _. exact G.
  - destruct (memn id (f_hot_done s)); [apply cpiece_nil; intros _; exact G|].
    destruct G as [Hs [Hact|(id0 & k & -> & Hact)]]; rewrite Hact; cbn [filter map fst snd].
    + (* nobody listens *)
      apply cpiece_nil. intros _. split; [|left]; destruct (is_term e); auto.
    + destruct (Nat.eqb id0 id); cbn [negb filter map fst snd].
      * (* the current inner observable *)
        destruct e as [v|x|]; cbn [is_term].
        -- rewrite hot_next_out, Ha. apply (cpiece_app _ [_] (Some k)); [apply (cwalk_items k [v])|].
           apply cpiece_nil. intros _. split; [exact Hs|]. right. exists id0, k. auto.
        -- rewrite hot_err_out by exact Ha. apply cpiece_term. reflexivity.
        -- cbn [hot_event]. set (s1 := upd_hot_done (upd_active s []) (id :: f_hot_done s)).
           assert (P : CPiece (Some k) (snd (inner_done s1 k)) (fst (inner_done s1 k)))
             by (apply (proj2 (cascade_concat _)); [exact Ha|lia|repeat split; assumption]).
           destruct (inner_done s1 k) as [s2 o2]. cbn [fst snd] in *. rewrite app_nil_r. exact P.
      * (* another subject *)
        apply cpiece_nil. intros _. split; [|right; exists id0, k]; destruct (is_term e); auto.
  - apply cpiece_nil. intros _. exact G.
Qed.

Lemma concat_walk_marks cur l : concat_walk cur (map FMark l) = true.
Proof. induction l as [|j l IH]; [reflexivity|exact IH]. Qed.

Lemma cfrun : forall sts s live j cur,
  CGood cur s -> concat_walk cur (frun (Some 1) s live j sts) = true.
Proof.
  apply (frun_ind (Some 1) (fun s _ _ _ out => forall cur, CGood cur s -> concat_walk cur out = true)).
  - reflexivity.
  - intros s live j r cur _. apply concat_walk_marks.
  - intros s j e r out IH. exact IH.
  - intros s live j st r out _ IH cur G. destruct (cfstep s st cur G) as (cur' & H & G').
    cbn [concat_walk]. rewrite H. apply IH, G'.
Qed.

(* concat_all / concat_map: every item belongs to the inner observable subscribed last and
   not completed yet - no item of another inner observable between FSubscribed k and
   FInnerDone k, and no item outside such an interval. *)
Theorem flatten_concat_exclusive :
  forall sts, concat_exclusive_ok (run_flatten (Some 1) sts) = true.
Proof.
  intros sts. apply cfrun. intros _. split; [|left]; reflexivity.
Qed.

Definition ex_sts1 : list fstim :=
  [FOuter (ONext (IHot 0)); FOuter (ONext (ICold [Next (VZ 7%Z); Next (VZ 8%Z); Done])); FInner 0 (Next (VZ 5%Z));
   FInner 0 Done; FOuter ODone].

(* the run of concat_all on ex_sts1 *)
Definition ex_out1 : list fout :=
  [FMark 0; FSubscribed 0; FMark 1; FMark 2; FItem 0 (VZ 5%Z); FMark 3; FInnerDone 0; FSubscribed 1;
   FItem 1 (VZ 7%Z); FItem 1 (VZ 8%Z); FInnerDone 1; FMark 4; FTerm Done].

Example ex_out1_is_run : run_flatten (Some 1) ex_sts1 = ex_out1.
Proof. vm_compute. reflexivity. Qed.

Example ex_accept1 : items_exact_ok (Some 1) ex_sts1 ex_out1 = true.
Proof. vm_compute. reflexivity. Qed.

(* a duplicated item *)
Example ex_reject_duplicate :
  items_exact_ok (Some 1) ex_sts1
    [FMark 0; FSubscribed 0; FMark 1; FMark 2; FItem 0 (VZ 5%Z); FItem 0 (VZ 5%Z); FMark 3; FInnerDone 0; FSubscribed 1;
     FItem 1 (VZ 7%Z); FItem 1 (VZ 8%Z); FInnerDone 1; FMark 4; FTerm Done] = false.
Proof. vm_compute. reflexivity. Qed.

(* a dropped item of a synchronous inner observable *)
Example ex_reject_dropped :
  items_exact_ok (Some 1) ex_sts1
    [FMark 0; FSubscribed 0; FMark 1; FMark 2; FItem 0 (VZ 5%Z); FMark 3; FInnerDone 0; FSubscribed 1;
     FItem 1 (VZ 8%Z); FInnerDone 1; FMark 4; FTerm Done] = false.
Proof. vm_compute. reflexivity. Qed.

(* a dropped item of a hot inner observable *)
Example ex_reject_dropped_hot :
  items_exact_ok (Some 1) ex_sts1
    [FMark 0; FSubscribed 0; FMark 1; FMark 2; FMark 3; FInnerDone 0; FSubscribed 1;
     FItem 1 (VZ 7%Z); FItem 1 (VZ 8%Z); FInnerDone 1; FMark 4; FTerm Done] = false.
Proof. vm_compute. reflexivity. Qed.

(* two items swapped *)
Example ex_reject_swapped :
  items_exact_ok (Some 1) ex_sts1
    [FMark 0; FSubscribed 0; FMark 1; FMark 2; FItem 0 (VZ 5%Z); FMark 3; FInnerDone 0; FSubscribed 1;
     FItem 1 (VZ 8%Z); FItem 1 (VZ 7%Z); FInnerDone 1; FMark 4; FTerm Done] = false.
Proof. vm_compute. reflexivity. Qed.

(* an item of an inner observable that is not subscribed (it is still waiting) *)
Example ex_reject_unsubscribed_inner :
  items_exact_ok (Some 1) ex_sts1
    [FMark 0; FSubscribed 0; FMark 1; FItem 1 (VZ 7%Z); FMark 2; FItem 0 (VZ 5%Z); FMark 3; FInnerDone 0; FSubscribed 1;
     FItem 1 (VZ 7%Z); FItem 1 (VZ 8%Z); FInnerDone 1; FMark 4; FTerm Done] = false.
Proof. vm_compute. reflexivity. Qed.

(* an item tagged with the wrong inner observable *)
Example ex_reject_wrong_tag :
  items_exact_ok (Some 1) ex_sts1
    [FMark 0; FSubscribed 0; FMark 1; FMark 2; FItem 1 (VZ 5%Z); FMark 3; FInnerDone 0; FSubscribed 1;
     FItem 1 (VZ 7%Z); FItem 1 (VZ 8%Z); FInnerDone 1; FMark 4; FTerm Done] = false.
Proof. vm_compute. reflexivity. Qed.

(* the completion of a synchronous inner observable that said Done is owed *)
Example ex_reject_missing_inner_done :
  items_exact_ok (Some 1) ex_sts1
    [FMark 0; FSubscribed 0; FMark 1; FMark 2; FItem 0 (VZ 5%Z); FMark 3; FInnerDone 0; FSubscribed 1;
     FItem 1 (VZ 7%Z); FItem 1 (VZ 8%Z); FMark 4; FTerm Done] = false.
Proof. vm_compute. reflexivity. Qed.

(* a truncated trace: every stimulus has its segment *)
Example ex_reject_truncated :
  items_exact_ok (Some 1) ex_sts1 [FMark 0; FSubscribed 0; FMark 1; FMark 2; FItem 0 (VZ 5%Z)] = false.
Proof. vm_compute. reflexivity. Qed.

(* an inner observable subscribed twice *)
Example ex_reject_resubscribed :
  items_exact_ok (Some 1) ex_sts1
    [FMark 0; FSubscribed 0; FMark 1; FMark 2; FItem 0 (VZ 5%Z); FMark 3; FInnerDone 0; FSubscribed 1;
     FItem 1 (VZ 7%Z); FItem 1 (VZ 8%Z); FInnerDone 1; FSubscribed 1;
     FItem 1 (VZ 7%Z); FItem 1 (VZ 8%Z); FInnerDone 1; FMark 4; FTerm Done] = false.
Proof. vm_compute. reflexivity. Qed.

(* merge_all(2): the same hot subject emitted twice, a failing synchronous inner observable,
   items after the terminal and after the subject's completion *)
Definition ex_sts2 : list fstim :=
  [FOuter (ONext (IHot 0)); FOuter (ONext (IHot 0)); FOuter (ONext (ICold [Next (VZ 1%Z); Err 3%Z; Next (VZ 2%Z)]));
   FInner 0 (Next (VZ 5%Z)); FInner 1 (Next (VZ 9%Z)); FInner 0 Done; FInner 0 (Next (VZ 6%Z)); FOuter (ONext (IHot 1))].

Definition ex_out2 : list fout :=
  [FMark 0; FSubscribed 0; FMark 1; FSubscribed 1; FMark 2; FMark 3; FItem 0 (VZ 5%Z); FItem 1 (VZ 5%Z); FMark 4;
   FMark 5; FInnerDone 0; FSubscribed 2; FItem 2 (VZ 1%Z); FTerm (Err 3%Z); FMark 6; FMark 7].

Example ex_out2_is_run : run_flatten (Some 2) ex_sts2 = ex_out2.
Proof. vm_compute. reflexivity. Qed.

Example ex_accept2 : items_exact_ok (Some 2) ex_sts2 ex_out2 = true.
Proof. vm_compute. reflexivity. Qed.

(* one item per subscription, in subscription order *)
Example ex_reject_subscription_order :
  items_exact_ok (Some 2) ex_sts2
    [FMark 0; FSubscribed 0; FMark 1; FSubscribed 1; FMark 2; FMark 3; FItem 1 (VZ 5%Z); FItem 0 (VZ 5%Z); FMark 4;
     FMark 5; FInnerDone 0; FSubscribed 2; FItem 2 (VZ 1%Z); FTerm (Err 3%Z); FMark 6; FMark 7] = false.
Proof. vm_compute. reflexivity. Qed.

(* nothing after the script's error *)
Example ex_reject_item_after_script_error :
  items_exact_ok (Some 2) ex_sts2
    [FMark 0; FSubscribed 0; FMark 1; FSubscribed 1; FMark 2; FMark 3; FItem 0 (VZ 5%Z); FItem 1 (VZ 5%Z); FMark 4;
     FMark 5; FInnerDone 0; FSubscribed 2; FItem 2 (VZ 1%Z); FTerm (Err 3%Z); FItem 2 (VZ 2%Z); FMark 6; FMark 7] = false.
Proof. vm_compute. reflexivity. Qed.

(* nothing after the downstream terminal *)
Example ex_reject_item_after_terminal :
  items_exact_ok (Some 2) ex_sts2
    [FMark 0; FSubscribed 0; FMark 1; FSubscribed 1; FMark 2; FMark 3; FItem 0 (VZ 5%Z); FItem 1 (VZ 5%Z); FMark 4;
     FMark 5; FInnerDone 0; FSubscribed 2; FItem 2 (VZ 1%Z); FTerm (Err 3%Z); FMark 6; FItem 1 (VZ 6%Z); FMark 7] = false.
Proof. vm_compute. reflexivity. Qed.

(* nothing after unsubscribe() *)
Definition ex_sts3 : list fstim := [FOuter (ONext (IHot 0)); FInner 0 (Next (VZ 1%Z)); FUnsub; FInner 0 (Next (VZ 2%Z))].

Example ex_accept3 :
  run_flatten None ex_sts3 = [FMark 0; FSubscribed 0; FMark 1; FItem 0 (VZ 1%Z); FMark 2; FMark 3] /\
  items_exact_ok None ex_sts3 (run_flatten None ex_sts3) = true.
Proof. vm_compute. split; reflexivity. Qed.

Example ex_reject_item_after_unsub :
  items_exact_ok None ex_sts3 [FMark 0; FSubscribed 0; FMark 1; FItem 0 (VZ 1%Z); FMark 2; FMark 3; FItem 0 (VZ 2%Z)] = false.
Proof. vm_compute. reflexivity. Qed.

(* concat: an item of another inner observable inside FSubscribed k .. FInnerDone k *)
Example ex_concat_accept : concat_exclusive_ok ex_out1 = true.
Proof. vm_compute. reflexivity. Qed.

Example ex_concat_reject :
  concat_exclusive_ok
    [FMark 0; FSubscribed 0; FMark 1; FMark 2; FItem 0 (VZ 5%Z); FItem 1 (VZ 7%Z); FMark 3; FInnerDone 0; FSubscribed 1;
     FItem 1 (VZ 8%Z); FInnerDone 1; FMark 4; FTerm Done] = false.
Proof. vm_compute. reflexivity. Qed.

(* merge_all(2) interleaves, so the concat predicate is specific to the limit 1 *)
Example ex_concat_reject_merge2 : concat_exclusive_ok ex_out2 = false.
Proof. vm_compute. reflexivity. Qed.

Example ex_subs_reject : subs_consecutive 0 [FMark 0; FSubscribed 1; FMark 1; FSubscribed 0] = false.
Proof. vm_compute. reflexivity. Qed.

Check flatten_items_exact : forall n sts, valid_limit n -> items_exact_ok n sts (run_flatten n sts) = true.
Check flatten_subs_consecutive : forall n sts, valid_limit n -> subs_consecutive 0 (run_flatten n sts) = true.
Check flatten_subs_increasing : forall n sts, valid_limit n -> subs_increasing 0 (run_flatten n sts) = true.
Check flatten_concat_exclusive : forall sts, concat_exclusive_ok (run_flatten (Some 1) sts) = true.

Print Assumptions flatten_items_exact.
Print Assumptions flatten_subs_consecutive.
Print Assumptions flatten_subs_increasing.
Print Assumptions flatten_concat_exclusive.
