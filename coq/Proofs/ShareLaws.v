(* C11: share / publish subscribe the source once, not before they must, and multicast. *)
From RxModel Require Import Share.
Local Open Scope nat_scope.

Definition is_sub (o : shobs) : bool := match o with SSub => true | _ => false end.
Definition is_flow (o : shobs) : bool := match o with SSub | STap _ | SDeliver _ _ => true | _ => false end.
(* how often the source is subscribed in l *)
Definition count_sub (l : list shobs) : nat := length (filter is_sub l).

Lemma on_subject_spec s op : 
  sh_connected (fst (on_subject s op)) = sh_connected s /\ sh_src_live (fst (on_subject s op)) = sh_src_live s /\
  sh_left (fst (on_subject s op)) = sh_left s /\ count_sub (snd (on_subject s op)) = 0.
Proof.
  unfold on_subject. destruct (sstep (sh_subj s) op) as [x out]. cbn. repeat split.
  unfold count_sub. induction out as [|o r IH]; [reflexivity|]. cbn [flat_map]. rewrite filter_app. destruct o; exact IH.
Qed.

Lemma count_sub_app a b : count_sub (a ++ b) = count_sub a + count_sub b.
Proof. unfold count_sub. rewrite filter_app. apply app_length. Qed.

(* what touches the source or a subscriber in l: subscriptions of the source, items at the tap, deliveries *)
Definition flows (l : list shobs) : list shobs := filter is_flow l.

Lemma obs_of_ret_no_flow (out : list sobs) :
  (forall o, In o out -> match o with Deliver _ _ => False | _ => True end) -> flows (flat_map obs_of out) = [].
Proof.
  induction out as [|o r IH]; intros H; [reflexivity|]. cbn [flat_map]. unfold flows in *. rewrite filter_app.
  rewrite IH by (intros x Hx; apply H; right; exact Hx).
  specialize (H o (or_introl eq_refl)). destruct o; cbn; try reflexivity. contradiction.
Qed.

Lemma subclosed_no_flow s i : flows (snd (on_subject s (OpSubClosed i))) = [].
Proof.
  unfold on_subject. cbn [sstep]. destruct (Nat.ltb i (next_id (sh_subj s))); reflexivity.
Qed.

Lemma src_event_dead s e : sh_src_live s = false -> src_event s e = (s, []).
Proof. intros H. unfold src_event. rewrite H. reflexivity. Qed.

Lemma src_event_unconnected s e : sh_connected s = false -> snd (src_event s e) = [].
Proof. intros H. unfold src_event. rewrite H. destruct (sh_src_live s); reflexivity. Qed.

Lemma src_event_spec s e :
  sh_connected (fst (src_event s e)) = sh_connected s /\ count_sub (snd (src_event s e)) = 0.
Proof.
  unfold src_event. destruct (sh_src_live s); [|auto]. destruct (sh_connected s) eqn:Ec; [|auto].
  destruct e as [v|x|];
    [destruct (on_subject_spec s (OpNext v)) as (C & _ & _ & N); destruct (on_subject s (OpNext v))
    |destruct (on_subject_spec s (OpError x)) as (C & _ & _ & N); destruct (on_subject s (OpError x))
    |destruct (on_subject_spec s OpComplete) as (C & _ & _ & N); destruct (on_subject s OpComplete)];
    cbn [fst snd sh_connected] in *; (split; [congruence|exact N]).
Qed.

Lemma src_events_spec : forall es s,
  sh_connected (fst (src_events s es)) = sh_connected s /\ count_sub (snd (src_events s es)) = 0.
Proof.
  induction es as [|e r IH]; intros s; [auto|]. cbn [src_events].
  destruct (src_event_spec s e) as [C N]. destruct (src_event s e) as [s1 o1]. cbn [fst snd] in *.
  destruct (IH s1) as [C2 N2]. destruct (src_events s1 r) as [s2 o2]. cbn [fst snd] in *.
  rewrite count_sub_app, N, N2. split; [congruence|reflexivity].
Qed.

Lemma connect_spec src s : sh_connected (fst (connect src s)) = true /\ count_sub (snd (connect src s)) = 1.
Proof.
  unfold connect. destruct src as [|script]; [auto|].
  set (s1 := {| sh_subj := sh_subj s; sh_connected := true; sh_src_live := sh_src_live s; sh_left := sh_left s |}).
  destruct (src_events_spec script s1) as [C N]. destruct (src_events s1 script) as [s2 o]. cbn [fst snd] in *.
  split; [exact C|]. change (S (count_sub o) = 1). rewrite N. reflexivity.
Qed.

(* the operations that do not connect the source: all but connect() for publish, all but a subscription for share *)
Definition quiet_op (m : shmode) (op : shop) : bool :=
  match m, op with
  | MShare, ShSub => false
  | MPublish, ShConnect => false
  | _, _ => true
  end.

Lemma unsub_step ideal m src s i :
  let r := shstep ideal m src s (ShUnsub i) in
  snd r = [] /\ sh_connected (fst r) = sh_connected s /\ (sh_src_live s = false -> sh_src_live (fst r) = false).
Proof.
  cbn [shstep]. destruct (Nat.ltb i (next_id (sh_subj s)) && negb (memn i (sh_left s))); [|auto].
  destruct (on_subject_spec s (OpUnsubOne i)) as (C & L & _). destruct (on_subject s (OpUnsubOne i)) as [s1 o]. cbn [fst snd] in *.
  destruct m; [destruct ideal|]; cbn [sh_subj sh_connected sh_src_live].
  - destruct (all_left _); cbn [fst snd sh_connected sh_src_live]; repeat split; congruence.
  - destruct (is_empty_answer _); [unfold on_subject; destruct (sstep _ OpUnsubSubject)|]; cbn [fst snd with_subj sh_connected sh_src_live];
      repeat split; congruence.
  - cbn [fst snd sh_connected sh_src_live]. repeat split; congruence.
Qed.

(* One step.  The connection is made by the operation that is not quiet, and only once; that operation is
   the only one that subscribes the source; anything flows only from it or while the source is connected and live. *)
Lemma shstep_spec ideal m src s op :
  let r := shstep ideal m src s op in
  sh_connected (fst r) = sh_connected s || negb (quiet_op m op) /\
  count_sub (snd r) = (if sh_connected s || quiet_op m op then 0 else 1) /\
  (sh_connected s = true -> sh_src_live s = false -> sh_src_live (fst r) = false) /\
  ((if sh_connected s then negb (sh_src_live s) else quiet_op m op) = true -> flows (snd r) = []).
Proof.
  destruct op as [|i|e| |i].
  - cbn [shstep]. destruct (on_subject_spec s OpSubscribe) as (C & L & _ & _). destruct (on_subject s OpSubscribe) as [s1 o].
    cbn [fst snd] in *. destruct m; cbn [quiet_op negb].
    + destruct (sh_connected s) eqn:Ec; cbn [fst snd orb]; [repeat split; congruence|].
      destruct (connect_spec src s1) as [C2 N2]. repeat split; congruence.
    + rewrite !Bool.orb_false_r, Bool.orb_true_r. cbn [fst snd]. repeat split; congruence.
  - destruct (unsub_step ideal m src s i) as (O & C & L). cbv zeta. rewrite O, C.
    assert (Q : quiet_op m (ShUnsub i) = true) by (destruct m; reflexivity). rewrite Q, Bool.orb_true_r, Bool.orb_false_r. auto.
  - assert (Q : quiet_op m (ShSrc e) = true) by (destruct m; reflexivity). rewrite Q, Bool.orb_true_r, Bool.orb_false_r.
    cbn [shstep]. destruct src; [|cbn [fst snd]; auto]. destruct (src_event_spec s e) as [C N]. repeat split; auto.
    + intros _ Hl. rewrite (src_event_dead s e Hl). exact Hl.
    + destruct (sh_connected s) eqn:Ec; intros H; [|rewrite (src_event_unconnected s e Ec); reflexivity].
      apply Bool.negb_true_iff in H. rewrite (src_event_dead s e H). reflexivity.
  - cbn [shstep]. destruct m; cbn [quiet_op negb].
    + rewrite Bool.orb_true_r, Bool.orb_false_r. cbn [fst snd]. auto.
    + destruct (sh_connected s) eqn:Ec; cbn [fst snd orb]; [auto|].
      destruct (connect_spec src s) as [C2 N2]. repeat split; congruence.
  - assert (Q : quiet_op m (ShClosed i) = true) by (destruct m; reflexivity). rewrite Q, Bool.orb_true_r, Bool.orb_false_r.
    cbn [shstep]. destruct (memn i (sh_left s)); [cbn [fst snd]; auto|].
    destruct (on_subject_spec s (OpSubClosed i)) as (C & L & _ & N). repeat split; try congruence. intros _. apply subclosed_no_flow.
Qed.

Theorem source_subscribed_at_most_once ideal m src : forall h s,
  count_sub (shrun ideal m src s h) <= (if sh_connected s then 0 else 1).
Proof.
  induction h as [|op r IH]; intros s; [cbn; destruct (sh_connected s); lia|]. cbn [shrun].
  destruct (shstep_spec ideal m src s op) as (C & N & _). destruct (shstep ideal m src s op) as [s1 o]. cbn [fst snd] in *.
  specialize (IH s1). rewrite C in IH. rewrite count_sub_app, N. change (count_sub (SMark :: ?l)) with (count_sub l).
  destruct (sh_connected s), (quiet_op m op); cbn [orb negb] in *; lia.
Qed.

(* nothing flows while the source is not both connected and live, as long as no operation connects it *)
Theorem silent_run ideal m src : forall h s,
  (if sh_connected s then negb (sh_src_live s) else forallb (quiet_op m) h) = true -> flows (shrun ideal m src s h) = [].
Proof.
  induction h as [|op r IH]; intros s H; [reflexivity|]. cbn [shrun].
  destruct (shstep_spec ideal m src s op) as (C & _ & L & F). destruct (shstep ideal m src s op) as [s1 o]. cbn [fst snd] in *.
  unfold flows in *. rewrite filter_app. destruct (sh_connected s); cbn [orb forallb] in *.
  - rewrite (F H). apply IH. rewrite C, (L eq_refl (proj1 (Bool.negb_true_iff _) H)). reflexivity.
  - apply andb_prop in H. destruct H as [Q1 Q2]. rewrite Q1 in *. rewrite (F eq_refl). apply IH. rewrite C. exact Q2.
Qed.

(* publish: nothing before connect(); share: nothing before the first subscriber *)
Theorem nothing_before_connection ideal m src : forall h s,
  sh_connected s = false -> forallb (quiet_op m) h = true -> flows (shrun ideal m src s h) = [].
Proof. intros h s Hc Hq. apply silent_run. rewrite Hc. exact Hq. Qed.

(* the subscribers that an emission of the inner subject reaches: its live slots once the chamber is loaded, in order *)
Definition present (x : subj) : list nat :=
  match observers (load x) with Some o => filter (slot_alive (load x)) o | None => [] end.

Lemma flat_obs_deliver l e : flat_map obs_of (map (fun i => Deliver i e) l) = map (fun i => SDeliver i e) l.
Proof. induction l as [|i r IH]; [reflexivity|]. cbn. rewrite IH. reflexivity. Qed.

(* every subscriber present at an emission receives it *)
Theorem multicast s v :
  sh_connected s = true -> sh_src_live s = true ->
  snd (src_event s (Next v)) = STap v :: map (fun i => SDeliver i (Next v)) (present (sh_subj s)).
Proof.
  intros Hc Hl. unfold src_event, on_subject, present. rewrite Hc, Hl. cbn [sstep].
  destruct (observers (load (sh_subj s))) as [o|]; cbn [fst snd]; [rewrite flat_obs_deliver|]; reflexivity.
Qed.

(* what the property asks for: when the last subscriber leaves, nothing flows any more: the source is
   neither driven nor listened to, whatever happens afterwards *)
Theorem ideal_releases_after_last_leaver src s i h :
  sh_connected s = true ->
  all_left (fst (shstep true MShare src s (ShUnsub i))) = true ->
  (Nat.ltb i (next_id (sh_subj s)) && negb (memn i (sh_left s))) = true ->
  flows (shrun true MShare src (fst (shstep true MShare src s (ShUnsub i))) h) = [].
Proof.
  intros Hc Ha Hi. apply silent_run. revert Ha. cbn [shstep]. rewrite Hi.
  destruct (on_subject_spec s (OpUnsubOne i)) as (C & L & _). destruct (on_subject s (OpUnsubOne i)) as [s1 o]. cbn [fst snd] in *.
  match goal with |- context [if all_left ?x then _ else _] => destruct (all_left x) eqn:E end; cbn [fst]; intros Ha.
  - cbn. rewrite C, Hc. reflexivity.
  - congruence.
Qed.

(* the code as it is does not: the recorded finding *)
Theorem still_driven_after_last_leaver :
  exists h, flows (run_share false MShare ShHot h) <> flows (run_share true MShare ShHot h).
Proof. exists [ShSub; ShUnsub 0; ShSrc (Next (VZ 1))]. vm_compute. discriminate. Qed.

