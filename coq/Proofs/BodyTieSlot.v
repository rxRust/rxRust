(* Subscriber as translated from /repo/src is the slot machine; hence silence after unsubscribe() and after a terminal, for
   every history of calls through any clone. *)
From RxModel Require Import BodyAbsSlot.
From RxGen Require Import Bodies.
From RxProofs Require Import BodyTie.
Open Scope string_scope.
Open Scope list_scope.

Lemma subscriber_ok : subscriber_agrees bodies.
Proof.
  intros alive o. split.
  - destruct o as [[v|x|]|]; cbn [slot_call arg_of fst snd]; find_once; destruct alive; tie.
  - exists []. split; [|reflexivity]. find_once. destruct alive; tie.
Qed.

Theorem subscriber_run_ok : forall os alive, subscriber_run bodies (subscriber alive) os = Some (slot_run alive os).
Proof.
  induction os as [|o r IH]; intros alive; [reflexivity|].
  cbn [subscriber_run slot_run]. destruct (subscriber_ok alive o) as [H _]. rewrite H.
  destruct (slot_step alive o) as [a out]. cbn [fst snd]. rewrite IH. reflexivity.
Qed.

Lemma slot_run_dead os : slot_run false os = [].
Proof. induction os as [|o r IH]; [reflexivity|]. cbn [slot_run]. destruct o; cbn [slot_step]; exact IH. Qed.

(* after unsubscribe() has returned - whatever came before, whatever is called afterwards - nothing is delivered *)
Theorem silent_after_unsubscribe : forall before after,
  subscriber_run bodies (subscriber true) (before ++ SUnsubscribe :: after) = Some (slot_run true before).
Proof.
  intros before after. rewrite subscriber_run_ok. f_equal.
  generalize true. induction before as [|o r IH]; intros alive.
  - cbn [app slot_run slot_step]. apply slot_run_dead.
  - cbn [app slot_run]. destruct (slot_step alive o) as [a out]. rewrite IH. reflexivity.
Qed.
