(* Ileave.v, C06 (completeness under concurrency): a probe subscribed by the setup script and never
   unsubscribed sees EVERY broadcast that reaches anybody, and -- when all threads have returned and
   nobody terminated the subject -- every `next` of every script has reached it. *)
From RxProofs Require Export IleaveLaws.
Local Open Scope nat_scope.

Section FullTime.
Variable k : nat.     (* the full-time probe *)

(* while the observer list exists, the probe is in it or still in the chamber, with its cell alive *)
Definition KIn (s : ish) : Prop :=
  forall o, s_obs s = Some o -> In k (o ++ olist (s_cham s)) /\ cell_alive s k = true.

(* ... and here it is in the observer list itself: a delivery that snapshots the list now serves it *)
Definition ObsK (s : ish) : Prop := forall o, s_obs s = Some o -> In k o.

(* what the position of a thread says about the observer list: a thread that filters / delivers a
   terminal has taken it; a thread about to take the snapshot for a delivery has loaded the chamber,
   so the probe is in the list itself; a thread that delivers holds LObs, so the list is there *)
Definition kloc (s : ish) (th : ithread) : Prop :=
  match t_pc th with
  | PFin _ _ | PClosed _ _ | PTake _ _ | PInCbT _ _ _ => s_obs s = None
  | PDeliver _ => KIn s -> ObsK s
  | PCell _ _ | PInCb _ _ _ => s_obs s <> None
  | _ => True
  end.

Lemma F_kloc_self s t th s1 th1 o : imove s t th = (s1, th1, o) -> kloc s th -> kloc s1 th1.
Proof.
  intros H%imove_istep. destruct H; unfold kloc, next_cell; try destruct rest; cbn [t_pc]; intros Hl; auto;
    try congruence; try (intros _ o1 Ho1; congruence).
  intros HK o1 Ho1. destruct (HK _ Ho1) as [Hin _]. cbn in Hin. rewrite app_nil_r in Hin. exact Hin.
Qed.

Lemma F_killk s t th s1 th1 o :
  imove s t th = (s1, th1, o) -> cell_alive s k = true -> cell_alive s1 k = false ->
  (t_pc th = PIdle /\ exists r, t_ops th = IUnsub k :: r) \/ (exists e rest, t_pc th = PTake e (k :: rest)).
Proof.
  intros H%imove_istep. destruct H; intros Ha Hd; autorewrite with il in Hd; try congruence.
  all: rewrite Ha, ?andb_true_r in Hd; cbn [orb] in Hd; try discriminate.
  all: apply negb_false_iff, Nat.eqb_eq in Hd; subst.
  - left. split; [reflexivity|eexists; reflexivity].
  - right. eexists; eexists; reflexivity.
Qed.

Lemma F_KIn s t th s1 th1 o :
  imove s t th = (s1, th1, o) -> local s th -> kloc s th -> ~ In (IUnsub k) (t_ops th) ->
  KIn s -> KIn s1.
Proof.
  intros Hm Hl Ht Hu HK o1 Ho1. destruct (s_obs s) as [ob|] eqn:Eo.
  2:{ rewrite (F_obs_none _ _ _ _ _ _ Hm Eo) in Ho1. discriminate. }
  destruct (HK ob Eo) as [Hin Ha]. split.
  - destruct (F_obs _ _ _ _ _ _ Hm) as [(_ & E & Ec)|[(k0 & _ & ->)|[(p & ob0 & c & _ & _ & E & Ec & E1 & Ec1)|[(E & _)|(Hpc & _)]]]].
    + rewrite Ec. congruence.
    + rewrite obs_sub in Ho1. assert (o1 = ob) as -> by congruence.
      rewrite cham_sub. destruct (s_cham s) as [c|]; [|exact Hin].
      cbn [olist] in *. rewrite app_assoc. apply in_or_app. left. exact Hin.
    + rewrite Ec1, Ec in *. cbn [olist] in *. rewrite app_nil_r. congruence.
    + congruence.
    + unfold local in Hl. rewrite Hpc in Hl. congruence.
  - destruct (cell_alive s1 k) eqn:E; [reflexivity|]. exfalso.
    destruct (F_killk _ _ _ _ _ _ Hm Ha E) as [(_ & r & Hr)|(e & rest & Hpc)].
    + apply Hu. rewrite Hr. left. reflexivity.
    + unfold kloc in Ht. rewrite Hpc in Ht. congruence.
Qed.

Lemma F_sub_KIn s t th s1 th1 o :
  imove s t th = (s1, th1, o) -> sub_now th = Some k -> chamP s -> KIn s1.
Proof.
  intros Hm Hs Hc.
  destruct (F_obs _ _ _ _ _ _ Hm) as [(E & _)|[(k0 & E & ->)|[(p & ob0 & c & Hpc & _)|[(_ & _ & _ & [(e & Hpc)|(Hpc & r & Hr)])|(Hpc & _)]]]];
    unfold sub_now in *; try rewrite Hpc in Hs; try rewrite Hr in Hs; try congruence.
  assert (k0 = k) as -> by congruence. intros o1 Ho1. rewrite obs_sub in Ho1. rewrite alive_sub, Nat.eqb_refl.
  rewrite cham_sub. destruct (s_cham s) as [c|] eqn:Ec; [|rewrite (Hc Ec) in Ho1; discriminate].
  cbn [olist]. split; [|apply orb_true_r]. apply in_or_app. right. apply in_or_app. right. left. reflexivity.
Qed.

Lemma F_ObsK s t th s1 th1 o : imove s t th = (s1, th1, o) -> ObsK s -> ObsK s1.
Proof.
  intros Hm HK o1 Ho1.
  destruct (F_obs _ _ _ _ _ _ Hm) as [(_ & E & _)|[(k0 & _ & ->)|[(p & ob & c & _ & _ & E & _ & E1 & _)|[(E & _)|(_ & E & _)]]]];
    rewrite ?obs_sub in *; try (apply HK; congruence).
  assert (o1 = ob ++ c) as -> by congruence. apply in_or_app. left. apply HK. exact E.
Qed.

(* a delivery keeps the probe in front of it until the probe's own callback returns *)
Lemma F_front s t th s1 th1 o :
  imove s t th = (s1, th1, o) -> deliv (t_pc th) = true -> In k (pending (t_pc th)) -> cell_alive s k = true ->
  (deliv (t_pc th1) = true /\ In k (pending (t_pc th1)) /\ t_idx th1 = t_idx th) \/
  (exists v rest, t_pc th = PInCb v k rest).
Proof.
  intros H%imove_istep. destruct H; cbn [t_pc deliv pending]; intros Hd Hin Ha; try discriminate Hd.
  - auto.
  - destruct Hin as [->|Hin]; [congruence|]. destruct rest; [destruct Hin|]. cbn. auto.
  - destruct Hin as [->|Hin]; [eauto|]. destruct rest; [destruct Hin|]. cbn. auto.
  - destruct Hin.
Qed.

End FullTime.

Section Complete.
Variable k : nat.

(* the shared state, for a full-time probe k: while the observer list exists the probe is in it or
   in the chamber, with its cell alive; nobody will unsubscribe it *)
Record SInv (s : ish) (ths : list ithread) : Prop := {
  si_kin : KIn k s;
  si_noun : ops_all (fun _ x => x <> IUnsub k) ths;
  si_loc : forall i th, nth_error ths i = Some th -> kloc k s th
}.

Lemma SInv_step s ths t t' th s1 th1 o :
  Core s ths -> SInv s ths -> ienabled s ths t = true -> nth_error ths t = Some th ->
  imove s t' th = (s1, th1, o) -> SInv s1 (set_th ths t th1).
Proof.
  intros HC [Hkin Hnu Hloc] He Ht Hm. constructor.
  - eapply F_KIn; eauto; [eapply c_local; eauto|]. intros Hin. exact (Hnu _ _ _ Ht Hin eq_refl).
  - eapply ops_all_step; eauto. discriminate.
  - apply (set_th_all _ _ _ _ _ Ht); [eapply F_kloc_self; eauto|]. intros i x Hni Hi'.
    specialize (Hloc _ _ Hi').
    (* the list is taken under LObs only: not while x holds it *)
    assert (Hheld : iholds (t_pc x) LObs = true -> s_obs s <> None -> s_obs s1 <> None).
    { intros Hh Hs H1. rewrite (enabled_free _ _ _ _ _ _ _ He Ht (F_obs_lose _ _ _ _ _ _ Hm Hs H1) Hi') in Hh. discriminate. }
    unfold kloc in *. destruct (t_pc x); auto; try (eapply F_obs_none; eauto; fail); try (apply Hheld; [reflexivity|exact Hloc]).
    intros _. eapply F_ObsK; eauto.
Qed.

Lemma SInv_pdel s ths i th :
  SInv s ths -> nth_error ths i = Some th -> is_pdel (t_pc th) = true -> ObsK k s.
Proof.
  intros HS Hi Hp. pose proof (si_loc _ _ HS _ _ Hi) as Hl. unfold kloc in Hl.
  destruct (t_pc th); try discriminate. exact (Hl (si_kin _ _ HS)).
Qed.

Lemma SInv_alive s ths i th :
  SInv s ths -> nth_error ths i = Some th -> deliv (t_pc th) = true -> cell_alive s k = true.
Proof.
  intros HS Hi Hd. pose proof (si_loc _ _ HS _ _ Hi) as Hl. unfold kloc in Hl.
  destruct (s_obs s) as [ob|] eqn:Eo; [apply (si_kin _ _ HS ob Eo)|]. destruct (t_pc th); try discriminate; congruence.
Qed.

Variable scripts : list (list iop).

(* The probe may have been subscribed when the order already was `before`: it is compared with the
   rest of the order.  A full-time probe has before = []. *)
Variable before : list bid.

(* every broadcast in progress has the probe still in front of it, or has served it *)
Definition FrontOrServed (L : list bent) (ths : list ithread) : Prop :=
  forall t th, nth_error ths t = Some th -> deliv (t_pc th) = true ->
               In k (pending (t_pc th)) \/ In (t, t_idx th) (bidsL L k).

(* the probe has seen the whole order -- or all of it but the broadcast in progress, which has
   reached somebody else and has the probe still in front of it *)
Definition SeenButCurrent (L : list bent) (ths : list ithread) : Prop :=
  ordL L = before ++ bidsL L k \/
  exists t th, nth_error ths t = Some th /\ deliv (t_pc th) = true /\ In k (pending (t_pc th)) /\
               ordL L = before ++ bidsL L k ++ [(t, t_idx th)].

(* what was broadcast before belongs to operations that have returned *)
Definition Returned (ths : list ithread) : Prop :=
  forall t th j, nth_error ths t = Some th -> In (t, j) before -> j < t_idx th.

Lemma Returned_step s ths t t' th s1 th1 o :
  Returned ths -> nth_error ths t = Some th -> imove s t' th = (s1, th1, o) -> Returned (set_th ths t th1).
Proof.
  intros HO Ht Hm i x j Hi Hin. destruct (nth_set_th_inv _ _ _ _ _ _ Ht Hi) as [[-> ->]|[Hni Hi']]; [|eauto].
  specialize (HO _ _ _ Ht Hin). destruct (F_deliv _ _ _ _ _ _ Hm) as [[H _]|[H _]]; lia.
Qed.

Lemma Seen_silent L s ths t th s1 th1 o :
  SInv s ths -> FrontOrServed L ths -> SeenButCurrent L ths ->
  nth_error ths t = Some th -> imove s t th = (s1, th1, o) ->
  (forall v k0 rest, t_pc th <> PInCb v k0 rest) ->
  FrontOrServed L (set_th ths t th1) /\ SeenButCurrent L (set_th ths t th1).
Proof.
  intros HS HD HP Ht Hm Hnc.
  assert (Hkeep : deliv (t_pc th) = true -> In k (pending (t_pc th)) ->
                  deliv (t_pc th1) = true /\ In k (pending (t_pc th1)) /\ t_idx th1 = t_idx th).
  { intros Hd Hin. destruct (F_front k _ _ _ _ _ _ Hm Hd Hin (SInv_alive _ _ _ _ HS Ht Hd)) as [H|(v & rest & Hpc)];
      [exact H|destruct (Hnc _ _ _ Hpc)]. }
  split.
  - intros i x Hi Hd. destruct (nth_set_th_inv _ _ _ _ _ _ Ht Hi) as [[-> ->]|[Hni Hi']]; [|eauto].
    destruct (deliv (t_pc th)) eqn:Edt.
    + destruct (HD _ _ Ht Edt) as [Hin|Hin].
      * left. apply Hkeep; auto.
      * right. destruct (F_deliv _ _ _ _ _ _ Hm) as [[_ Hp]|[Hidx _]].
        -- rewrite Hp in Hd. discriminate.
        -- rewrite Hidx. exact Hin.
    + left. destruct (F_enter _ _ _ _ _ _ Hm Hd Edt) as [Hp Ho].
      eapply SInv_pdel; eauto.
  - destruct HP as [HP|(t' & th' & Ht' & Hd' & Hin' & Ho')]; [left; exact HP|]. right.
    destruct (Nat.eq_dec t' t) as [->|Hne].
    + assert (th' = th) by congruence. subst th'. destruct (Hkeep Hd' Hin') as (H1 & H2 & H3).
      exists t, th1. rewrite H3. repeat split; auto. eapply nth_set_th_same; eauto.
    + exists t', th'. repeat split; auto. rewrite nth_set_th_other; auto.
Qed.

Lemma Seen_bcast L s ths t th s1 th1 o v k0 rest :
  Core s ths -> CO L ths -> SInv s ths -> Returned ths -> FrontOrServed L ths -> SeenButCurrent L ths ->
  nth_error ths t = Some th -> imove s t th = (s1, th1, o) ->
  t_pc th = PInCb v k0 rest ->
  FrontOrServed (L ++ [(k0, v, (t, t_idx th))]) (set_th ths t th1) /\
  SeenButCurrent (L ++ [(k0, v, (t, t_idx th))]) (set_th ths t th1).
Proof.
  intros HC [_ HCO] HS HO HD HP Ht Hm Hpc.
  destruct (HCO _ _ Ht) as (_ & _ & C3). rewrite Hpc in C3. cbn [pending] in C3.
  assert (Hdl : deliv (t_pc th) = true) by (rewrite Hpc; reflexivity).
  set (b := (t, t_idx th)) in *. set (L' := L ++ [(k0, v, b)]).
  (* the thread that broadcasts is the only one: the broadcast in progress of SeenButCurrent is this one, and
     FrontOrServed is about this thread only *)
  assert (Honly : forall i x, nth_error ths i = Some x -> deliv (t_pc x) = true -> i = t).
  { intros i x Hi Hd. eapply (c_mutex _ _ HC i t x th LObs); eauto using deliv_holds. }
  assert (HP' : ordL L = before ++ bidsL L k \/ (In k (k0 :: rest) /\ ordL L = before ++ bidsL L k ++ [b])).
  { destruct HP as [HP|(t' & th' & Ht' & Hd' & Hin' & Ho')]; [left; exact HP|right].
    assert (t' = t) by (eapply Honly; eauto). subst t'. assert (th' = th) by congruence. subst th'.
    rewrite Hpc in Hin'. auto. }
  assert (HD1 : (deliv (t_pc th1) = true -> In k (pending (t_pc th1)) \/ In b (bidsL L' k)) ->
                FrontOrServed L' (set_th ths t th1)).
  { intros H i x Hi Hd. destruct (nth_set_th_inv _ _ _ _ _ _ Ht Hi) as [[-> ->]|[Hni Hi']].
    - destruct (F_deliv _ _ _ _ _ _ Hm) as [[_ Hp]|[-> _]]; [rewrite Hp in Hd; discriminate|auto].
    - destruct (Hni (Honly _ _ Hi' Hd)). }
  (* while the probe is in front of the broadcast, the order is what the probe has seen, and b *)
  assert (Hfront : In k (k0 :: rest) -> ordL L' = before ++ bidsL L k ++ [b]).
  { intros Hin. unfold L'. rewrite ordL_snoc. destruct HP' as [HP'|[_ HP']].
    - rewrite HP', (app_assoc before). destruct (memb b (map snd L)) eqn:Em; [|reflexivity].
      apply memb_ordL in Em. rewrite HP' in Em. apply in_app_or in Em. destruct Em as [Em|Em].
      + specialize (HO _ _ _ Ht Em). lia.
      + destruct (C3 k Hin Em).
    - rewrite (proj2 (memb_ordL L b)), app_nil_r; [exact HP'|].
      rewrite HP', app_assoc. apply in_or_app. right. left. reflexivity. }
  unfold SeenButCurrent, L' in *. rewrite bidsL_snoc in *. destruct (Nat.eqb k0 k) eqn:Ek.
  - (* the probe is served *)
    apply Nat.eqb_eq in Ek. subst k0. split.
    + apply HD1. intros _. right. apply in_or_app. right. left. reflexivity.
    + left. apply Hfront. left. reflexivity.
  - rewrite app_nil_r in *. destruct (HD _ _ Ht Hdl) as [Hin|Hin].
    + (* it is still in front of the broadcast *)
      destruct (F_front k _ _ _ _ _ _ Hm Hdl Hin (SInv_alive _ _ _ _ HS Ht Hdl)) as [(Hd1 & Hin1 & Hi1)|(v' & rest' & Hpc')];
        [|apply Nat.eqb_neq in Ek; congruence].
      rewrite Hpc in Hin. split; [apply HD1; auto|].
      right. exists t, th1. rewrite Hi1. split; [eapply nth_set_th_same; eauto|]. auto.
    + (* it has been served before *)
      split; [apply HD1; auto|]. left. rewrite ordL_snoc, (proj2 (memb_ordL L b)), app_nil_r by (eapply bidsL_in; eauto).
      destruct HP' as [HP'|[Hk _]]; [exact HP'|destruct (C3 k Hk Hin)].
Qed.

(* everything that is maintained along a schedule for the probe k that joined after `before` *)
Definition ProbeInv (L : list bent) (s : ish) (ths : list ithread) : Prop :=
  Inv7 scripts L s ths /\ SInv s ths /\ Returned ths /\ FrontOrServed L ths /\ SeenButCurrent L ths.

Lemma ProbeInv_step L s ths t th s1 th1 o :
  ProbeInv L s ths -> ienabled s ths t = true -> nth_error ths t = Some th -> imove s t th = (s1, th1, o) ->
  ProbeInv (L ++ bcasts scripts o) s1 (set_th ths t th1).
Proof.
  intros (HI & HS & HO & HD & HP) He Ht Hm.
  split; [eapply Inv7_move; eauto|]. split; [eapply SInv_step; eauto; apply HI|]. split; [eapply Returned_step; eauto|].
  destruct HI as (HC & HSt & _ & _ & HCO).
  destruct (move_bcasts_cases scripts _ _ _ _ _ _ _ HSt Ht Hm) as [[-> Hnc]|(v & k0 & rest & Hpc & ->)].
  - rewrite app_nil_r. eapply Seen_silent; eauto.
  - eapply Seen_bcast; eauto.
Qed.

(* between two operations of every thread the invariant asks for the state only *)
Lemma ProbeInv_idle L s ths :
  Inv7 scripts L s ths -> KIn k s -> (forall i th, nth_error ths i = Some th -> t_pc th = PIdle) ->
  ops_all (fun _ x => x <> IUnsub k) ths -> Returned ths -> ordL L = before ++ bidsL L k -> ProbeInv L s ths.
Proof.
  intros HI HK Hidle Hnu HO HP. split; [exact HI|]. split; [|split; [exact HO|split; [|left; exact HP]]].
  - constructor; auto. intros i th Hi. unfold kloc. rewrite (Hidle _ _ Hi). exact I.
  - intros t th Ht Hd. rewrite (Hidle _ _ Ht) in Hd. discriminate.
Qed.

Lemma ProbeInv_quiet L s ths :
  ProbeInv L s ths -> forallb (fun th => negb (deliv (t_pc th))) ths = true -> ordL L = before ++ bidsL L k.
Proof.
  intros (_ & _ & _ & _ & [HP|(t & th & Ht & Hd & _)]) Hq; [exact HP|]. rewrite forallb_forall in Hq.
  specialize (Hq _ (nth_error_In _ _ Ht)). rewrite Hd in Hq. discriminate.
Qed.

End Complete.

Lemma unsub_in k ops : In (IUnsub k) ops -> In k (unsubscribed_in ops).
Proof.
  intros H. unfold unsubscribed_in. apply in_flat_map. exists (IUnsub k). split; [exact H|left; reflexivity].
Qed.

Lemma KIn_after_setup k v0 setup :
  setup_completes v0 setup = true -> In k (subscribed_in setup) -> ~ In k (unsubscribed_in setup) ->
  KIn k (run_alone 1000 (ish0 v0) (start_thread setup)).
Proof.
  intros Hc Hs Hu.
  destruct (setup_inv (fun s th => ~ In (IUnsub k) (t_ops th) /\ kloc k s th /\ (In k (subs th) \/ KIn k s)) v0 setup)
    as (th & (_ & _ & [Hk|Hk]) & Ho); [| | |exact Hk].
  - intros s th s1 th1 o Hch Hl Hp (Hnu & Htl & Hk) Hm.
    split; [intros Hin; destruct (F_ops_sub _ _ _ _ _ _ _ Hm Hin) as [H|(v & H)]; [auto|discriminate]|].
    split; [eapply F_kloc_self; eauto|].
    destruct Hk as [Hk|Hk]; [|right; eapply F_KIn; eauto].
    unfold subs in *. rewrite (F_subs _ _ _ _ _ _ Hm Hp Hch) in Hk.
    destruct (sub_now th) as [k'|] eqn:Es; [|left; exact Hk].
    destruct Hk as [->|Hk]; [right; eapply F_sub_KIn; eauto|left; exact Hk].
  - split; [intros Hin; apply Hu, unsub_in, Hin|]. split; [exact I|left; exact Hs].
  - unfold subs in Hk. rewrite (Ho Hc) in Hk. destruct Hk.
Qed.

Lemma full_time_in k setup scripts :
  In k (full_time setup scripts) ->
  In k (subscribed_in setup) /\ ~ In k (unsubscribed_in setup) /\
  forall sc, In sc scripts -> ~ In (IUnsub k) sc.
Proof.
  unfold full_time. rewrite filter_In. intros [Hs Hu]. apply negb_true_iff in Hu. apply imem_false in Hu.
  split; [exact Hs|]. unfold unsubscribed_in in *. rewrite flat_map_app in Hu. split.
  - intros H. apply Hu. apply in_or_app. left. exact H.
  - intros sc Hsc Hin. apply Hu. apply in_or_app. right. apply in_flat_map. exists (IUnsub k).
    split; [|left; reflexivity]. apply in_concat. exists sc. auto.
Qed.

Lemma ProbeInv_init k v0 setup scripts :
  names_ok setup scripts = true -> setup_completes v0 setup = true -> In k (full_time setup scripts) ->
  ProbeInv k scripts [] [] (run_alone 1000 (ish0 v0) (start_thread setup)) (map start_thread scripts).
Proof.
  intros Hn Hc Hk. destruct (full_time_in _ _ _ Hk) as (Hs & Hu & Hsc).
  apply ProbeInv_idle; [apply Inv7_init; exact Hn|apply KIn_after_setup; auto| | |intros t th j _ []|reflexivity].
  - intros i th Hi. apply (starts_idle scripts). eapply nth_error_In; eauto.
  - apply ops_all_start. intros i sc x Hi Hx ->. exact (Hsc sc (nth_error_In _ _ Hi) Hx).
Qed.

Lemma list_bid_eqb_refl a : list_bid_eqb a a = true.
Proof.
  unfold list_bid_eqb. rewrite Nat.eqb_refl. cbn. induction a as [|x a IH]; cbn; [reflexivity|].
  rewrite bid_eqb_refl. exact IH.
Qed.

(* the threads at the end of the schedule *)
Definition final_threads (v0 : Z) (setup : list iop) (scripts : list (list iop)) (sched : list nat) : list ithread :=
  snd (fst (irun (run_alone 1000 (ish0 v0) (start_thread setup)) (map start_thread scripts) sched)).

(* the schedule does not stop in the middle of a broadcast (a thread parked between two of the
   subscribers its `next` is handing the item to) *)
Definition no_broadcast_in_progress (v0 : Z) (setup : list iop) (scripts : list (list iop)) (sched : list nat) : bool :=
  forallb (fun th => negb (deliv (t_pc th))) (final_threads v0 setup scripts sched).

Definition all_but_maybe_last (a b : list bid) : bool :=
  list_bid_eqb a b || list_bid_eqb a (removelast b).

(* C06 at any moment of any schedule: a full-time probe has seen the whole global order, or all of
   it but its last broadcast -- and then that broadcast is still in progress, with the probe in
   front of it *)
Definition full_time_sees_all_but_last (setup : list iop) (scripts : list (list iop)) (tr : list itr) : bool :=
  forallb (fun k => all_but_maybe_last (bids_of scripts tr k) (order scripts tr)) (full_time setup scripts).

Lemma full_time_run k v0 setup scripts sched s ths tr :
  names_ok setup scripts = true -> setup_completes v0 setup = true -> In k (full_time setup scripts) ->
  irun (run_alone 1000 (ish0 v0) (start_thread setup)) (map start_thread scripts) sched = (s, ths, tr) ->
  ProbeInv k scripts [] (bcasts scripts tr) s ths.
Proof.
  intros Hn Hc Hk Hr.
  exact (irun_bcasts scripts _ (ProbeInv_step k scripts []) sched _ _ _ _ _ (ProbeInv_init k v0 setup scripts Hn Hc Hk) Hr).
Qed.

Theorem il_full_time_sees_all_but_last v0 setup scripts sched :
  names_ok setup scripts = true -> setup_completes v0 setup = true ->
  let '(tr, e, fin) := run_case v0 setup scripts sched in
  full_time_sees_all_but_last setup scripts tr = true.
Proof.
  intros Hn Hc. apply run_case_irun. intros s ths tr Er.
  unfold full_time_sees_all_but_last. apply forallb_forall. intros k Hk.
  destruct (full_time_run k v0 setup scripts sched s ths tr Hn Hc Hk Er) as (_ & _ & _ & _ & HP).
  unfold all_but_maybe_last. rewrite bids_of_L, order_L.
  destruct HP as [HP|(t & th & _ & _ & _ & HP)]; rewrite HP; cbn [app].
  - rewrite list_bid_eqb_refl. reflexivity.
  - rewrite removelast_last, list_bid_eqb_refl. apply orb_true_r.
Qed.

Lemma finished_quiet ths : ifinished ths = true -> forallb (fun th => negb (deliv (t_pc th))) ths = true.
Proof.
  intros Hf. apply forallb_forall. intros th Hin. destruct (In_nth_error _ _ Hin) as (t & Ht).
  destruct (finished_th _ _ _ Hf Ht) as [-> _]. reflexivity.
Qed.

Lemma sees_all_quiet v0 setup scripts sched s ths tr :
  names_ok setup scripts = true -> setup_completes v0 setup = true ->
  irun (run_alone 1000 (ish0 v0) (start_thread setup)) (map start_thread scripts) sched = (s, ths, tr) ->
  forallb (fun th => negb (deliv (t_pc th))) ths = true -> full_time_sees_all setup scripts tr = true.
Proof.
  intros Hn Hc Er Hq. apply forallb_forall. intros k Hk.
  rewrite bids_of_L, order_L, (ProbeInv_quiet k scripts [] _ _ _ (full_time_run k v0 setup scripts sched s ths tr Hn Hc Hk Er) Hq).
  apply list_bid_eqb_refl.
Qed.

Theorem il_full_time_sees_all_quiet v0 setup scripts sched :
  names_ok setup scripts = true -> setup_completes v0 setup = true ->
  no_broadcast_in_progress v0 setup scripts sched = true ->
  let '(tr, e, fin) := run_case v0 setup scripts sched in
  full_time_sees_all setup scripts tr = true.
Proof.
  intros Hn Hc Hq. unfold no_broadcast_in_progress, final_threads in Hq. apply run_case_irun. intros s ths tr Er.
  rewrite Er in Hq. exact (sees_all_quiet _ _ _ _ _ _ _ Hn Hc Er Hq).
Qed.

(* C06 as the task states it (a current subscriber gets every emission), for the executions in
   which every thread has returned *)
Theorem il_full_time_sees_all v0 setup scripts sched :
  names_ok setup scripts = true -> setup_completes v0 setup = true ->
  let '(tr, e, fin) := run_case v0 setup scripts sched in
  e = EFinished -> full_time_sees_all setup scripts tr = true.
Proof.
  intros Hn Hc. apply run_case_irun. intros s ths tr Er He%finished_end.
  exact (sees_all_quiet _ _ _ _ _ _ _ Hn Hc Er (finished_quiet _ He)).
Qed.

(* without `e = EFinished` or no_broadcast_in_progress, full_time_sees_all is false: a schedule can
   stop when a broadcast has reached the first of two full-time probes and not yet the second *)
Example full_time_sees_all_fails_mid_broadcast :
  (let '(tr, e, fin) := run_case 0%Z [ISub 0; ISub 1] [[INext 1%Z]] [0;0;0;0;0] in
   (names_ok [ISub 0; ISub 1] [[INext 1%Z]], setup_completes 0%Z [ISub 0; ISub 1],
    full_time [ISub 0; ISub 1] [[INext 1%Z]], e,
    no_broadcast_in_progress 0%Z [ISub 0; ISub 1] [[INext 1%Z]] [0;0;0;0;0],
    full_time_sees_all [ISub 0; ISub 1] [[INext 1%Z]] tr,
    full_time_sees_all_but_last [ISub 0; ISub 1] [[INext 1%Z]] tr))
  = (true, true, [0; 1], EShort, false, false, true).
Proof. vm_compute. reflexivity. Qed.

(* no_broadcast_in_progress is satisfiable by an unfinished execution with broadcasts: it is weaker
   than "every thread has returned" *)
Example quiet_satisfiable :
  (let '(tr, e, fin) := run_case 0%Z [ISub 0; ISub 1] [[INext 1%Z; INext 2%Z]] (repeat 0 8) in
   (e, no_broadcast_in_progress 0%Z [ISub 0; ISub 1] [[INext 1%Z; INext 2%Z]] (repeat 0 8),
    order [[INext 1%Z; INext 2%Z]] tr, full_time_sees_all [ISub 0; ISub 1] [[INext 1%Z; INext 2%Z]] tr))
  = (EShort, true, [(0, 0)], true).
Proof. vm_compute. reflexivity. Qed.

(* the test inside Spec's has_term *)
Definition is_termop (o : iop) : bool := match o with ITerm _ | ISUnsub => true | _ => false end.

Lemma existsb_false_all {A} (f : A -> bool) l : existsb f l = false -> forall x, In x l -> f x = false.
Proof.
  intros H x Hx. destruct (f x) eqn:E; [|reflexivity].
  assert (existsb f l = true) by (apply existsb_exists; eauto). congruence.
Qed.

Lemma F_noterm s t th s1 th1 o :
  imove s t th = (s1, th1, o) -> pc_ok th -> (forall x, In x (t_ops th) -> is_termop x = false) ->
  s_obs s <> None -> s_obs s1 <> None.
Proof.
  intros Hm Hp Hn Hs.
  destruct (F_obs _ _ _ _ _ _ Hm) as [(_ & E & _)|[(k0 & _ & ->)|[(p & ob & c & _ & _ & _ & _ & E & _)|[(_ & _ & _ & Hc)|(_ & E & _)]]]];
    rewrite ?obs_sub; try congruence.
  exfalso. unfold pc_ok in Hp. destruct Hc as [(e & Hpc)|(_ & r & Hr)].
  - rewrite Hpc in Hp. destruct Hp as (r & Hr). rewrite Hr in Hn. discriminate (Hn _ (or_introl eq_refl)).
  - rewrite Hr in Hn. discriminate (Hn _ (or_introl eq_refl)).
Qed.

(* how a `next` returns: out of a delivery, or at once when the list is gone or empty *)
Lemma F_ret s t th s1 th1 o v r :
  imove s t th = (s1, th1, o) -> t_idx th1 = S (t_idx th) -> pc_ok th -> t_ops th = INext v :: r ->
  deliv (t_pc th) = true \/ (is_pdel (t_pc th) = true /\ (s_obs s = None \/ s_obs s = Some [])).
Proof.
  intros H%imove_istep. destruct H; unfold next_cell, pc_ok; try destruct rest;
    cbn [t_pc t_ops t_idx pc_op pay_op is_pdel deliv]; intros Hi Hp Hops; try (exfalso; lia); try discriminate Hops; auto.
  all: try (destruct Hp as (r0 & Hp); rewrite Hops in Hp; discriminate Hp).
  right. split; [reflexivity|tauto].
Qed.

(* the operations Spec's next_ops and value_of select *)
Definition is_nextop (o : option iop) : bool :=
  match o with Some (INext _) | Some (IBNext _) => true | _ => false end.

Section Lost.
Variable k : nat.
Variable scripts : list (list iop).

Definition NTInv (s : ish) (ths : list ithread) : Prop :=
  s_obs s <> None /\ ops_all (fun _ x => is_termop x = false) ths.

Lemma NTInv_step s ths t t' th s1 th1 o :
  Core s ths -> NTInv s ths -> nth_error ths t = Some th -> imove s t' th = (s1, th1, o) ->
  NTInv s1 (set_th ths t th1).
Proof.
  intros HC [Hs Hn] Ht Hm. split; [|eapply ops_all_step; eauto; reflexivity].
  exact (F_noterm _ _ _ _ _ _ Hm (c_pcok _ _ HC _ _ Ht) (fun x => Hn _ _ x Ht) Hs).
Qed.

(* every `next` of every script has reached the probe or is still to come *)
Definition ReachedOrToCome (L : list bent) (ths : list ithread) : Prop :=
  forall t sc j, nth_error scripts t = Some sc -> is_nextop (nth_error sc j) = true ->
    In (t, j) (bidsL L k) \/
    exists th, nth_error ths t = Some th /\ t_idx th <= j < t_idx th + length (t_ops th).

Lemma bidsL_mono L X b : In b (bidsL L k) -> In b (bidsL (L ++ X) k).
Proof. unfold bidsL. rewrite flat_map_app. intros H. apply in_or_app. left. exact H. Qed.

Lemma ReachedOrToCome_step L s ths t th s1 th1 o :
  ProbeInv k scripts [] L s ths -> NTInv s ths -> ReachedOrToCome L ths ->
  nth_error ths t = Some th -> imove s t th = (s1, th1, o) ->
  ReachedOrToCome (L ++ bcasts scripts o) (set_th ths t th1).
Proof.
  intros (HI & HS & _ & HD & _) [Hobs _] HDn Ht Hm i sc j Hsc Hop.
  destruct (HDn _ _ _ Hsc Hop) as [Hin|(x & Hx & Hr)]; [left; apply bidsL_mono; exact Hin|].
  destruct (Nat.eq_dec i t) as [->|Hni]; [|right; exists x; rewrite nth_set_th_other; auto].
  assert (x = th) by congruence. subst x. rewrite (nth_set_th_same _ _ _ _ Ht).
  destruct HI as (HC & HSt & _). pose proof (c_pcok _ _ HC _ _ Ht) as Hpc.
  destruct (F_script _ _ _ _ _ _ Hm Hpc (c_cham _ _ HC))
    as [(v & r & _ & E & E1 & _ & Hidx & _)|[(_ & E1 & Hidx)|(_ & Hidx & _ & o0 & Hops & Hnb)]];
    try (right; exists th1; rewrite Hidx, E1; rewrite ?E in Hr; auto; fail).
  rewrite Hops in Hr. cbn [length] in Hr.
  destruct (Nat.eq_dec j (t_idx th)) as [->|Hne]; [left|right; exists th1; split; [reflexivity|lia]].
  (* the operation that returns is a next: how did it return? *)
  destruct (HSt _ _ Ht) as (_ & sc' & Hsc' & Hl). unfold link in Hl. rewrite Hops in Hl.
  destruct Hl as (o' & Hn & _ & Ho'). assert (sc' = sc) by congruence. subst sc'. rewrite Hn in Hop.
  assert (exists v, o0 = INext v) as (v & ->).
  { destruct Ho' as [->|(v & _ & ->)]; [|eauto]. destruct o0; try discriminate; eauto. destruct (Hnb _ eq_refl). }
  destruct (F_ret _ _ _ _ _ _ _ _ Hm Hidx Hpc Hops) as [Hd|[Hp [Hno|Hno]]].
  2:{ congruence. }
  2:{ (* the probe is in the list, so the list is not empty *) destruct (SInv_pdel _ _ _ _ _ HS Ht Hp _ Hno). }
  destruct (HD _ _ Ht Hd) as [Hin|Hin]; [|apply bidsL_mono; exact Hin].
  (* the probe is in front of the broadcast that returns: what returns is the probe's own callback *)
  destruct (F_front k _ _ _ _ _ _ Hm Hd Hin (SInv_alive _ _ _ _ _ HS Ht Hd)) as [(_ & _ & E)|(v' & rest & Hpc')]; [lia|].
  rewrite (move_bcasts scripts _ _ _ _ _ _ _ HSt Ht Hm), Hpc', bidsL_snoc, Nat.eqb_refl.
  apply in_or_app. right. left. reflexivity.
Qed.

(* ... and, for a full-time probe when no script terminates the subject, that no `next` is lost *)
Definition LosslessInv (L : list bent) (s : ish) (ths : list ithread) : Prop :=
  ProbeInv k scripts [] L s ths /\ NTInv s ths /\ ReachedOrToCome L ths.

Lemma LosslessInv_step L s ths t th s1 th1 o :
  LosslessInv L s ths -> ienabled s ths t = true -> nth_error ths t = Some th -> imove s t th = (s1, th1, o) ->
  LosslessInv (L ++ bcasts scripts o) s1 (set_th ths t th1).
Proof.
  intros (HF & HN & HD) He Ht Hm. assert (HC : Core s ths) by apply HF.
  split; [eapply ProbeInv_step; eauto|]. split; [eapply NTInv_step; eauto|eapply ReachedOrToCome_step; eauto].
Qed.

Lemma all_done L s ths t sc j :
  LosslessInv L s ths -> ifinished ths = true -> nth_error scripts t = Some sc ->
  is_nextop (nth_error sc j) = true -> In (t, j) (bidsL L k).
Proof.
  intros (_ & _ & HD) Hf Hsc Hop. destruct (HD _ _ _ Hsc Hop) as [H|(th & Hth & Hr)]; [exact H|].
  destruct (finished_th _ _ _ Hf Hth) as [_ Hops]. rewrite Hops in Hr. cbn in Hr. lia.
Qed.

End Lost.

Lemma obs_after_setup v0 setup :
  has_term setup = false -> s_obs (run_alone 1000 (ish0 v0) (start_thread setup)) <> None.
Proof.
  intros Hn.
  destruct (setup_inv (fun s th => (forall x, In x (t_ops th) -> is_termop x = false) /\ s_obs s <> None) v0 setup)
    as (th & [_ H] & _); [| |exact H].
  - intros s th s1 th1 o _ _ Hp (Hx & Hs) Hm. split; [|eapply F_noterm; eauto].
    intros x Hin. destruct (F_ops_sub _ _ _ _ _ _ _ Hm Hin) as [Hi|(v & ->)]; [auto|reflexivity].
  - split; [|discriminate]. apply existsb_false_all. exact Hn.
Qed.

Lemma combine_seq_in {A} (l : list A) a n x :
  In (n, x) (combine (seq a (length l)) l) -> a <= n /\ nth_error l (n - a) = Some x.
Proof.
  revert a. induction l as [|y l IH]; intros a; cbn; [intros []|].
  intros [H|H].
  - inversion H; subst. rewrite Nat.sub_diag. split; [lia|reflexivity].
  - apply IH in H. destruct H as [H1 H2]. split; [lia|].
    replace (n - a) with (S (n - S a)) by lia. exact H2.
Qed.

Lemma next_ops_in scripts b :
  In b (next_ops scripts) -> exists sc, nth_error scripts (fst b) = Some sc /\ is_nextop (nth_error sc (snd b)) = true.
Proof.
  unfold next_ops. rewrite in_concat. intros (l & Hl & Hb). apply in_map_iff in Hl.
  destruct Hl as ([t sc] & <- & Hp). apply combine_seq_in in Hp. destruct Hp as [_ Hsc].
  rewrite Nat.sub_0_r in Hsc. cbn [fst snd] in Hb. apply in_flat_map in Hb.
  destruct Hb as ([j op] & Hq & Hb). apply combine_seq_in in Hq. destruct Hq as [_ Hop].
  rewrite Nat.sub_0_r in Hop. cbn [fst snd] in Hb.
  exists sc. destruct op; cbn in Hb; try contradiction; destruct Hb as [<-|[]]; cbn [fst snd];
    rewrite Hop; auto.
Qed.

Lemma LosslessInv_init k v0 setup scripts :
  names_ok setup scripts = true -> setup_completes v0 setup = true -> In k (full_time setup scripts) ->
  has_term (setup ++ concat scripts) = false ->
  LosslessInv k scripts [] (run_alone 1000 (ish0 v0) (start_thread setup)) (map start_thread scripts).
Proof.
  intros Hn Hc Hk Ht. unfold has_term in Ht. rewrite existsb_app in Ht. apply orb_false_iff in Ht.
  destruct Ht as [Ht1 Ht2].
  split; [apply ProbeInv_init; auto|]. split.
  - split; [apply obs_after_setup; exact Ht1|]. apply ops_all_start. intros i sc x Hsc Hx.
    apply (existsb_false_all _ _ Ht2). apply in_concat. exists sc. split; [eapply nth_error_In; eauto|exact Hx].
  - intros t sc j Hsc Hop. right. exists (start_thread sc). rewrite nth_error_map, Hsc. split; [reflexivity|]. cbn.
    split; [lia|]. apply nth_error_Some. intros E. rewrite E in Hop. discriminate.
Qed.

Lemma full_time_run2 k v0 setup scripts sched s ths tr :
  names_ok setup scripts = true -> setup_completes v0 setup = true -> In k (full_time setup scripts) ->
  has_term (setup ++ concat scripts) = false ->
  irun (run_alone 1000 (ish0 v0) (start_thread setup)) (map start_thread scripts) sched = (s, ths, tr) ->
  LosslessInv k scripts (bcasts scripts tr) s ths.
Proof.
  intros Hn Hc Hk Ht Hr.
  exact (irun_bcasts scripts _ (LosslessInv_step k scripts) sched _ _ _ _ _ (LosslessInv_init k v0 setup scripts Hn Hc Hk Ht) Hr).
Qed.

(* the clauses about finished executions with a full-time probe and no terminal *)
Lemma when_finished (X : bool) setup scripts e :
  (e = EFinished -> forall k, In k (full_time setup scripts) -> has_term (setup ++ concat scripts) = false ->
   X = true) ->
  match e, full_time setup scripts with
  | EFinished, _ :: _ => has_term (setup ++ concat scripts) || X
  | _, _ => true
  end = true.
Proof.
  intros H. destruct e; try reflexivity. destruct (full_time setup scripts) as [|k ft]; [reflexivity|].
  destruct (has_term _); [reflexivity|]. apply (H eq_refl k); [left; reflexivity|reflexivity].
Qed.

Theorem il_nothing_lost v0 setup scripts sched :
  names_ok setup scripts = true -> setup_completes v0 setup = true ->
  let '(tr, e, fin) := run_case v0 setup scripts sched in
  nothing_lost setup scripts tr e = true.
Proof.
  intros Hn Hc. apply run_case_irun. intros s ths tr Er.
  apply when_finished. intros Hf%finished_end k Hk Eh.
  pose proof (full_time_run2 k v0 setup scripts sched s ths tr Hn Hc Hk Eh Er) as HF.
  apply forallb_forall. intros [t j] Hb. apply next_ops_in in Hb. destruct Hb as (sc & Hsc & Hop).
  apply memb_In. rewrite order_L. apply (bidsL_in _ k). exact (all_done k scripts _ _ _ _ _ _ HF Hf Hsc Hop).
Qed.

(* no thread is parked inside a broadcast that has already reached somebody and still has a
   full-time probe in front of it *)
Definition no_full_time_probe_behind (v0 : Z) (setup : list iop) (scripts : list (list iop)) (sched : list nat) : bool :=
  let '(s, ths, tr) := irun (run_alone 1000 (ish0 v0) (start_thread setup)) (map start_thread scripts) sched in
  forallb (fun p : nat * ithread =>
             negb (deliv (t_pc (snd p)) && memb (fst p, t_idx (snd p)) (order scripts tr) &&
                   existsb (fun k => imem k (pending (t_pc (snd p)))) (full_time setup scripts)))
          (combine (seq 0 (length ths)) ths).

Lemma in_combine_seq {A} (l : list A) a n x :
  nth_error l n = Some x -> In (a + n, x) (combine (seq a (length l)) l).
Proof.
  revert a n. induction l as [|y l IH]; intros a [|n]; cbn; try discriminate.
  - intros H. inversion H; subst. left. rewrite Nat.add_0_r. reflexivity.
  - intros H. right. replace (a + S n) with (S a + n) by lia. apply IH. exact H.
Qed.

Lemma list_bid_eqb_true a b : list_bid_eqb a b = true -> a = b.
Proof.
  unfold list_bid_eqb. revert b. induction a as [|x a IH]; intros [|y b]; cbn; try discriminate; [reflexivity|].
  intros H. apply andb_true_iff in H. destruct H as [Hl H]. apply andb_true_iff in H. destruct H as [Hxy H].
  apply bid_eqb_eq in Hxy. subst y. f_equal. apply IH. rewrite Hl. exact H.
Qed.

Theorem il_full_time_sees_all_iff v0 setup scripts sched :
  names_ok setup scripts = true -> setup_completes v0 setup = true ->
  let '(tr, e, fin) := run_case v0 setup scripts sched in
  full_time_sees_all setup scripts tr = no_full_time_probe_behind v0 setup scripts sched.
Proof.
  intros Hn Hc. unfold no_full_time_probe_behind. apply run_case_irun. intros s ths tr Er. rewrite Er.
  assert (HFT : forall k, In k (full_time setup scripts) -> ProbeInv k scripts [] (bcasts scripts tr) s ths).
  { intros k Hk. eapply full_time_run; eauto. }
  apply eq_iff_eq_true. unfold full_time_sees_all. rewrite !forallb_forall. split.
  - intros Hall [t th] Hp. apply combine_seq_in in Hp. destruct Hp as [_ Ht]. rewrite Nat.sub_0_r in Ht.
    cbn [fst snd]. apply negb_true_iff. apply not_true_iff_false. intros H.
    apply andb_true_iff in H. destruct H as [H Hex]. apply andb_true_iff in H. destruct H as [Hd Hm].
    apply existsb_exists in Hex. destruct Hex as (k & Hk & Hin). apply imem_In in Hin.
    specialize (Hall k Hk). apply list_bid_eqb_true in Hall. rewrite bids_of_L in Hall.
    apply memb_In in Hm. rewrite <- Hall in Hm.
    destruct (HFT k Hk) as ((_ & _ & _ & _ & [_ HCO]) & _).
    destruct (HCO _ _ Ht) as (_ & _ & C3). exact (C3 k Hin Hm).
  - intros Hno k Hk. destruct (HFT k Hk) as (_ & _ & _ & _ & HP). rewrite bids_of_L, order_L.
    destruct HP as [HP|(t & th & Ht & Hd & Hin & Ho)]; [rewrite HP; apply list_bid_eqb_refl|].
    exfalso. specialize (Hno (t, th) (in_combine_seq ths 0 t th Ht)). cbn [fst snd app] in Hno, Ho.
    rewrite Hd in Hno. rewrite order_L, Ho in Hno.
    assert (memb (t, t_idx th) (bidsL (bcasts scripts tr) k ++ [(t, t_idx th)]) = true) as Hm.
    { apply memb_In. apply in_or_app. right. left. reflexivity. }
    rewrite Hm in Hno. cbn [andb] in Hno. apply negb_true_iff in Hno.
    assert (existsb (fun k0 => imem k0 (pending (t_pc th))) (full_time setup scripts) = true) as Hex.
    { apply existsb_exists. exists k. split; [exact Hk|]. apply imem_In. exact Hin. }
    congruence.
Qed.

(* a schedule that stops inside a broadcast which has reached nobody yet: the exact condition holds
   (and so does full_time_sees_all) although a broadcast is in progress *)
Example behind_weaker_than_quiet :
  (let '(tr, e, fin) := run_case 0%Z [ISub 0; ISub 1] [[INext 1%Z]] [0;0;0;0] in
   (no_broadcast_in_progress 0%Z [ISub 0; ISub 1] [[INext 1%Z]] [0;0;0;0],
    no_full_time_probe_behind 0%Z [ISub 0; ISub 1] [[INext 1%Z]] [0;0;0;0],
    full_time_sees_all [ISub 0; ISub 1] [[INext 1%Z]] tr))
  = (false, true, true).
Proof. vm_compute. reflexivity. Qed.

(* the hypotheses are needed.  Without names_ok: a probe subscribed twice sees every broadcast twice *)
Example sees_all_needs_names :
  (let '(tr, e, fin) := run_case 0%Z [ISub 0; ISub 0] [[INext 1%Z]] (repeat 0 30) in
   (names_ok [ISub 0; ISub 0] [[INext 1%Z]], setup_completes 0%Z [ISub 0; ISub 0], e,
    full_time_sees_all [ISub 0; ISub 0] [[INext 1%Z]] tr))
  = (false, true, EFinished, false).
Proof. vm_compute. reflexivity. Qed.

(* without setup_completes: `run_case` cuts the setup script off before it subscribes probe 0, which
   the definition of full_time counts as subscribed *)
Definition cut_setup : list iop := repeat (INext 1%Z) 400 ++ [ISub 0].
Example sees_all_needs_setup_completes :
  (let '(tr, e, fin) := run_case 0%Z cut_setup [[ISub 1; INext 5%Z]] (repeat 0 30) in
   (names_ok cut_setup [[ISub 1; INext 5%Z]], setup_completes 0%Z cut_setup, e,
    full_time_sees_all cut_setup [[ISub 1; INext 5%Z]] tr, nothing_lost cut_setup [[ISub 1; INext 5%Z]] tr e))
  = (true, false, EFinished, false, true).
Proof. vm_compute. reflexivity. Qed.

(* a non-trivial case (ex_setup, ex_scripts, ex_sched of IleaveLaws): three threads, subject and behavior operations, a terminal *)
Example complete_case_runs :
  (let '(tr, e, f) := run_case 0%Z ex_setup ex_scripts ex_sched in
   (full_time ex_setup ex_scripts, e, full_time_sees_all ex_setup ex_scripts tr,
    nothing_lost ex_setup ex_scripts tr e, no_full_time_probe_behind 0%Z ex_setup ex_scripts ex_sched,
    Nat.ltb 2 (length (order ex_scripts tr)))) = ([1], EFinished, true, true, true, true).
Proof. vm_compute. reflexivity. Qed.

Print Assumptions il_full_time_sees_all_but_last.
Print Assumptions il_full_time_sees_all_quiet.
Print Assumptions il_full_time_sees_all.
Print Assumptions il_full_time_sees_all_iff.
Print Assumptions il_nothing_lost.
