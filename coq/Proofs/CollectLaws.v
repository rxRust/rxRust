(* What every proof that the runs of an operator are accepted by a fold of `collect_step` (the C09 predicates)
   needs.  The relations are conjunctions over PROJECTIONS of the two states, not records: `upd_*` and `w_label`
   build record literals, so after a step that leaves the projections a relation reads alone, the relation on
   the new states is convertible with the one on the old: the proof before the step is the proof after it. *)
From RxModel Require Import Timed.
From RxSpec Require Import TimedSpec.
From RxProofs Require Import TimedLaws.
Open Scope N_scope.

Lemma run_sim_trace {St} (step : list tlab -> St -> tout -> option St) (o : top) (R : list tout -> tsys -> St -> Prop) :
  (forall ls_full done l r pre s w, ls_full = done ++ l :: r -> R pre s w ->
      exists w', walk (step ls_full) w (TMark (length done) :: snd (tstep o s l)) = Some w' /\
                 R (pre ++ TMark (length done) :: snd (tstep o s l)) (fst (tstep o s l)) w') ->
  forall r done pre s w ls_full,
    ls_full = done ++ r -> R pre s w ->
    exists w' s', walk (step ls_full) w (trun_sys o s (length done) r) = Some w' /\
                  R (pre ++ trun_sys o s (length done) r) s' w'.
Proof. intros H. apply (run_sim_gen step o (fun _ => R)). intros ls_full done l r. apply H. Qed.

Lemma collect_mark ls_full done l r w (acc : list val) out :
  ls_full = done ++ l :: r ->
  walk (collect_step ls_full) (w, acc) (TMark (length done) :: out) = walk (collect_step ls_full) (w_label w (Some l), acc) out.
Proof. intros ->. cbn [walk collect_step]. rewrite nth_error_mid. reflexivity. Qed.

(* what reaches the subscriber over `ls` from `s`: the positions of the labels do not matter *)
Fixpoint routs (o : top) (s : tsys) (ls : list tlab) : list tout :=
  match ls with
  | [] => []
  | l :: r => touts (snd (tstep o s l)) ++ routs o (fst (tstep o s l)) r
  end.

Lemma touts_run o ls : forall s j, touts (trun_sys o s j ls) = routs o s ls.
Proof.
  induction ls as [|l r IH]; intros s j; [reflexivity|].
  cbn [trun_sys routs]. destruct (tstep o s l) as [s1 out]. cbn [fst snd].
  change (touts (out ++ trun_sys o s1 (S j) r) = touts out ++ routs o s1 r). rewrite touts_app, IH. reflexivity.
Qed.

Lemma routs_app o a : forall s b, routs o s (a ++ b) = routs o s a ++ routs o (tfinal o s a) b.
Proof.
  induction a as [|l r IH]; intros s b; [reflexivity|]. cbn [app routs tfinal]. rewrite IH. apply app_assoc.
Qed.

Lemma tfinal_app o a : forall s b, tfinal o s (a ++ b) = tfinal o (tfinal o s a) b.
Proof. induction a as [|l r IH]; intros s b; [reflexivity|]. cbn [app tfinal]. apply IH. Qed.

(* used as `edestruct step_cons as [-> ->]; [exact E|]`: deliveries and final state rewritten together *)
Lemma step_cons o s l r s1 out : tstep o s l = (s1, out) ->
  routs o s (l :: r) = touts out ++ routs o s1 r /\ tfinal o s (l :: r) = tfinal o s1 r.
Proof. intros E. cbn [routs tfinal]. rewrite E. split; reflexivity. Qed.

(* the clocks agree; the walk logs the input while the operator is connected to it; after a terminal the
   slot is empty *)
Definition Conn (s : tsys) (w : wstate) : Prop :=
  w_now w = now s /\ w_subscribed w = true /\ w_src_done w = src_done s /\
  src_on s = negb (src_done s) && negb (w_unsub w) /\ (w_finished w = true -> alive s = false).

Lemma conn_init o : src_on (tinit o) = true -> src_done (tinit o) = false -> now (tinit o) = 0 -> Conn (tinit o) (w0 true).
Proof. intros H1 H2 H3. unfold Conn. cbn. rewrite H1, H2, H3. repeat split. discriminate. Qed.

(* labels that reach no operator *)
Definition idle_label (l : tlab) : Prop :=
  if raw_lab l then True else match l with LAdv _ | LClosed | LFinish => True | _ => False end.

Lemma conn_adv s w dt : Conn s w -> Conn (upd_now s (now s + dt)) (w_label w (Some (LAdv dt))).
Proof. intros (C1 & C). split; [|exact C]. cbn. rewrite C1. reflexivity. Qed.

Lemma conn_unsub s s' w :
  Conn s w -> now s' = now s -> src_done s' = src_done s -> src_on s' = false -> (alive s = false -> alive s' = false) ->
  Conn s' (w_label w (Some LUnsub)).
Proof.
  intros (C1 & C2 & C3 & _ & C5) E1 E2 E3 E4. unfold Conn. cbn. rewrite E1, E2, E3, Bool.andb_false_r. repeat split; auto.
Qed.

Definition w_log (w : wstate) (e : ev) (logged : bool) : wstate :=
  {| w_now := w_now w; w_cur := Some (LSrc e);
     w_src := if logged then w_src w ++ [(e, w_now w)] else w_src w;
     w_src_done := w_src_done w || is_term e; w_unsub := w_unsub w; w_finished := w_finished w;
     w_delivered := w_delivered w; w_subscribed := w_subscribed w |}.

Lemma w_label_src w e :
  w_label w (Some (LSrc e)) = w_log w e (negb (w_src_done w) && (w_subscribed w && negb (w_unsub w))).
Proof. unfold w_log. cbn [w_label]. destruct (w_src_done w); reflexivity. Qed.

(* an input notification is dropped before any operator sees it, and then not logged, or reaches `on_src` *)
Lemma src_cases o s w e : Conn s w ->
  (exists on' done',
     tstep o s (LSrc e) = (upd_src s on' done', []) /\ (src_done s = true -> done' = true) /\
     w_label w (Some (LSrc e)) = w_log w e false /\ Conn (upd_src s on' done') (w_log w e false))
  \/
  (src_done s = false /\ w_unsub w = false /\
   let s1 := if is_term e then upd_src s false true else s in
   tstep o s (LSrc e) = on_src o s1 e /\ w_label w (Some (LSrc e)) = w_log w e true /\ Conn s1 (w_log w e true)).
Proof.
  intros (C1 & C2 & C3 & C4 & C5). rewrite w_label_src, C2, C3. cbn [tstep].
  destruct (src_done s) eqn:Ed; [|destruct (src_on s) eqn:Eo; destruct (w_unsub w) eqn:Eu; try discriminate C4].
  - left. exists (src_on s), (src_done s). rewrite upd_src_same.
    repeat split; cbn; rewrite ?Ed; auto. rewrite C3. reflexivity.
  - right. destruct (is_term e) eqn:Et; repeat split; cbn; rewrite ?C3, ?Ed, ?Eo, ?Eu, ?Et; auto.
  - left. exists false, (is_term e).
    assert (E : (if is_term e then upd_src s false true else s) = upd_src s false (is_term e)).
    { destruct (is_term e); [reflexivity|]. rewrite <- (upd_src_same s) at 1. rewrite Eo, Ed. reflexivity. }
    rewrite E. repeat split; cbn; rewrite ?C3, ?Eu, ?Bool.andb_false_r; auto; discriminate.
Qed.

Lemma walk_item ls s w acc v : Conn s w -> (alive s = true -> w_unsub w = false) ->
  walk (collect_step ls) (w, acc) (if alive s then [TOut (now s) (Next v)] else []) =
  Some (w, if alive s then acc ++ [v] else acc).
Proof.
  intros (C1 & _ & _ & _ & C5) Hu. destruct (alive s); [|reflexivity].
  cbn [walk collect_step]. rewrite (Hu eq_refl), <- C1, N.eqb_refl.
  destruct (w_finished w); [discriminate (C5 eq_refl)|reflexivity].
Qed.

(* after a terminal offered to the slot: delivered if the slot was occupied (`b`) *)
Definition w_term (w : wstate) (b : bool) : wstate :=
  {| w_now := w_now w; w_cur := w_cur w; w_src := w_src w; w_src_done := w_src_done w; w_unsub := w_unsub w;
     w_finished := w_finished w || b; w_delivered := if b then 0%nat :: w_delivered w else w_delivered w;
     w_subscribed := w_subscribed w |}.

Lemma walk_term_eq ls s w acc e : is_term e = true -> Conn s w -> (alive s = true -> w_unsub w = false) ->
  walk (collect_step ls) (w, acc) (if alive s then [TOut (now s) e] else []) = Some (w_term w (alive s), acc) /\
  Conn (upd_alive s false) (w_term w (alive s)).
Proof.
  intros He (C1 & C2 & C3 & C4 & C5) Hu. destruct (alive s) eqn:Ea.
  - assert (Hf : w_finished w = false) by (destruct (w_finished w); [discriminate (C5 eq_refl)|reflexivity]).
    cbn [walk collect_step]. rewrite Hf, (Hu eq_refl), <- C1, N.eqb_refl. split.
    + destruct e; [discriminate He|..]; unfold w_deliver, w_term; cbn [is_term]; reflexivity.
    + repeat split; auto.
  - split; [unfold w_term; rewrite Bool.orb_false_r; destruct w; reflexivity|].
    repeat split; cbn; rewrite ?Bool.orb_false_r; auto.
Qed.

