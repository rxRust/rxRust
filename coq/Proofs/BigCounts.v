(* Counts that no script reaches: the cases write `big`, `big1`, `mid` for usize::MAX, usize::MAX - 1 and 2^33 in the
   crate and the model runs them as 5000, 4999 and 4000.  That is sound because, for a script shorter than both, the
   documented list function does not depend on which of two such counts it is given. *)
From RxSpec Require Import Ops1Spec.

Lemma chunks_never_full n cur l :
  (length cur + length l < n)%nat -> chunks_l n cur l = ([], cur ++ l).
Proof.
  revert cur. induction l as [|x r IH]; intros cur H; cbn [chunks_l length] in *.
  - rewrite app_nil_r. reflexivity.
  - rewrite (proj2 (Nat.leb_gt _ _)), IH, <- app_assoc by (rewrite last_length; lia). reflexivity.
Qed.

Theorem count_beyond_the_script (mk1 : nat -> op1) :
  (mk1 = OTake \/ mk1 = OSkip \/ mk1 = OTakeLast \/ mk1 = OSkipLast \/ mk1 = OBufferCount) ->
  forall (n m : nat) (items : list val) (t : term),
    (length items < n)%nat -> (length items < m)%nat -> spec1 (mk1 n) items t = spec1 (mk1 m) items t.
Proof.
  intros Hk n m items t Hn Hm.
  destruct Hk as [-> | [-> | [-> | [-> | ->]]]]; cbn [spec1].
  - destruct n, m; try lia. rewrite !(proj2 (Nat.leb_gt _ _)) by assumption. reflexivity.
  - rewrite !skipn_all2 by lia. reflexivity.
  - unfold lastn. rewrite !(proj2 (Nat.sub_0_le _ _)) by lia. reflexivity.
  - rewrite !(proj2 (Nat.sub_0_le _ _)) by lia. reflexivity.
  - rewrite !chunks_never_full by (cbn [length]; lia). reflexivity.
Qed.
