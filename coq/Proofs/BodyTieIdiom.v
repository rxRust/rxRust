(* The closure idiom as translated from /repo/src: each call reaches exactly the closure it is meant for, with exactly
   the notification; whole call sequences give Pipe.idiom_log. *)
From RxModel Require Import BodyAbsIdiom.
From RxGen Require Import Bodies.
Open Scope string_scope.
Open Scope list_scope.

Lemma idiom_call_ok : idiom_call_agrees bodies.
Proof. intros e. destruct e; vm_compute; reflexivity. Qed.

Theorem idiom_run_ok : forall t, idiom_run bodies idiom_observer t = Some (idiom_log true t).
Proof.
  induction t as [|e r IH]; [reflexivity|].
  cbn [idiom_run idiom_log]. rewrite (idiom_call_ok e).
  destruct (is_term e) eqn:E; cbn [negb].
  - destruct r; reflexivity.
  - rewrite IH. reflexivity.
Qed.
