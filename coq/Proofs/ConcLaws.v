(* C10: with the crate's locking discipline no schedule deadlocks, and a subscriber's callback
   never runs on two threads at once; the subject's operations follow that discipline; and
   unsubscribe() of a task handle waits for a running poll (all interleavings, by evaluation). *)
From RxModel Require Import Conc.
Local Open Scope nat_scope.

(* the lock part of the discipline *)
Fixpoint ok_locks (st : list nat) (p : prog) : bool :=
  match p with
  | [] => match st with [] => true | _ => false end
  | Acq l :: r => forallb (fun h => Nat.ltb h l) st && ok_locks (l :: st) r
  | Rel l :: r => match st with x :: st' => Nat.eqb x l && ok_locks st' r | [] => false end
  | _ :: r => ok_locks st r
  end.

(* the callbacks a thread is inside of, innermost first, after action a *)
Definition ins_after (ins : list nat) (a : act) : list nat :=
  match a with Enter o => o :: ins | Leave _ => tl ins | _ => ins end.

(* one action of a disciplined program: the rest is disciplined from what the action leaves, and the action was allowed *)
Lemma ok_prog_cons lock_of st ins a p : ok_prog lock_of st ins (a :: p) = true ->
  ok_prog lock_of (stack_after st a) (ins_after ins a) p = true /\
  match a with
  | Acq l => forallb (fun h => h <? l) st = true
  | Rel l => hd_error st = Some l /\ existsb (fun o => lock_of o =? l) ins = false
  | Enter o => memn (lock_of o) st = true
  | Leave o => hd_error ins = Some o
  | See _ _ => True
  end.
Proof.
  destruct a as [l|l|o|o|o v]; cbn [ok_prog stack_after ins_after]; intros H.
  - apply andb_prop in H. destruct H; auto.
  - destruct st as [|x st']; [discriminate|]. apply andb_prop in H. destruct H as [H T]. apply andb_prop in H. destruct H as [E N].
    rewrite E. apply Nat.eqb_eq in E. subst x. apply Bool.negb_true_iff in N. auto.
  - apply andb_prop in H. destruct H as [H T]. apply andb_prop in H. destruct H; auto.
  - destruct ins as [|x ins']; [discriminate|]. apply andb_prop in H. destruct H as [E T]. apply Nat.eqb_eq in E. subst x. auto.
  - apply andb_prop in H. destruct H; auto.
Qed.

Lemma ok_prog_locks lock_of : forall p st ins, ok_prog lock_of st ins p = true -> ok_locks st p = true.
Proof.
  induction p as [|a r IH]; intros st ins H; [destruct st; [reflexivity|discriminate H]|].
  destruct (ok_prog_cons _ _ _ _ _ H) as [T C]. apply IH in T.
  destruct a as [l|l| | |]; cbn [ok_locks stack_after] in *; try exact T.
  - rewrite C. exact T.
  - destruct st as [|x st']; destruct C as [[= ->] _]. rewrite Nat.eqb_refl in *. exact T.
Qed.

Lemma memn_In x l : memn x l = true <-> In x l.
Proof.
  induction l as [|y r IH]; cbn; [split; [discriminate|contradiction]|].
  rewrite Bool.orb_true_iff, IH, Nat.eqb_eq. split; intros [H|H]; auto.
Qed.

(* every thread follows the lock discipline from where it is, no mutex is in two stacks, none twice in one *)
Definition Inv (c : conf) : Prop :=
  (forall t p st, nth_error c t = Some (p, st) -> ok_locks st p = true) /\
  (forall t1 t2 p1 st1 p2 st2 l, nth_error c t1 = Some (p1, st1) -> nth_error c t2 = Some (p2, st2) ->
                                 In l st1 -> In l st2 -> t1 = t2) /\
  (forall t p st, nth_error c t = Some (p, st) -> NoDup st).

Lemma nth_upd_same {A} : forall (l : list A) i x, i < length l -> nth_error (upd l i x) i = Some x.
Proof. induction l as [|y r IH]; intros [|i] x H; cbn in *; try lia; [reflexivity|apply IH; lia]. Qed.

Lemma nth_upd_other {A} : forall (l : list A) i j x, i <> j -> nth_error (upd l i x) j = nth_error l j.
Proof.
  induction l as [|y r IH]; intros [|i] [|j] x H; cbn; try reflexivity; try congruence. apply IH. congruence.
Qed.

Lemma upd_length {A} : forall (l : list A) i x, length (upd l i x) = length l.
Proof. induction l as [|y r IH]; intros [|i] x; cbn; auto. Qed.

Lemma held_spec c l : held c l = true <-> exists t p st, nth_error c t = Some (p, st) /\ In l st.
Proof.
  unfold held. rewrite existsb_exists. split.
  - intros ([p st] & Hin & Hm). apply In_nth_error in Hin. destruct Hin as [t Ht]. exists t, p, st. split; [exact Ht|apply memn_In, Hm].
  - intros (t & p & st & Ht & Hl). exists (p, st). split; [eapply nth_error_In, Ht|apply memn_In, Hl].
Qed.

Lemma step_thread c t t' p' st' :
  nth_error (fst (step c t)) t' = Some (p', st') ->
  nth_error c t' = Some (p', st') \/
  exists a st, t' = t /\ nth_error c t = Some (a :: p', st) /\ st' = stack_after st a /\
               (forall l, a = Acq l -> held c l = false).
Proof.
  unfold step. destruct (enabled c t) eqn:En; [|auto].
  destruct (nth_error c t) as [[[|a p] st]|] eqn:Et; auto. cbn [fst].
  destruct (Nat.eq_dec t t') as [<-|Ne]; [|rewrite nth_upd_other by exact Ne; auto].
  rewrite nth_upd_same by (apply nth_error_Some; congruence). intros [= <- <-]. right. exists a, st. repeat split; auto.
  intros l ->. unfold enabled in En. rewrite Et in En. apply Bool.negb_true_iff, En.
Qed.

Lemma exec_preserves (P : conf -> Prop) :
  (forall c t, P c -> P (fst (step c t))) -> forall sched c, P c -> P (fst (exec c sched)).
Proof.
  intros HP. induction sched as [|t r IH]; intros c H; [exact H|]. cbn [exec].
  specialize (HP c t H). destruct (step c t) as [c1 oa]. specialize (IH c1 HP). destruct (exec c1 r) as [c2 tr]. exact IH.
Qed.

Lemma start_nth ps t p st : nth_error (start ps) t = Some (p, st) -> st = [] /\ In p ps.
Proof.
  unfold start. rewrite nth_error_map. destruct (nth_error ps t) as [q|] eqn:E; [|discriminate].
  intros [= <- <-]. split; [reflexivity|eapply nth_error_In, E].
Qed.

Lemma stack_after_in st a l : In l (stack_after st a) -> In l st \/ a = Acq l.
Proof.
  destruct a as [l0|l0| | |]; cbn [stack_after]; auto.
  - intros [<-|H]; auto.
  - destruct st as [|x r]; auto. destruct (x =? l0); auto. intros H. left. right. exact H.
Qed.

Lemma ok_locks_tail st a p : ok_locks st (a :: p) = true -> ok_locks (stack_after st a) p = true.
Proof.
  destruct a as [l|l| | |]; cbn [ok_locks stack_after]; auto.
  - intros H. apply andb_prop in H. apply H.
  - destruct st as [|x st']; [discriminate|]. intros H. apply andb_prop in H. destruct H as [-> H]. exact H.
Qed.

Lemma ok_locks_sorted_head st l r : ok_locks st (Acq l :: r) = true -> forall h, In h st -> h < l.
Proof.
  cbn. intros H h Hh. apply andb_prop in H. destruct H as [H _]. rewrite forallb_forall in H. apply Nat.ltb_lt, H, Hh.
Qed.

Lemma stack_after_nodup st a p : ok_locks st (a :: p) = true -> NoDup st -> NoDup (stack_after st a).
Proof.
  intros Ok Nd. destruct a as [l|l| | |]; cbn [stack_after]; auto.
  - constructor; [|exact Nd]. intros Hin. pose proof (ok_locks_sorted_head _ _ _ Ok l Hin). lia.
  - destruct st as [|x st']; [constructor|]. destruct (x =? l); [inversion Nd; assumption|exact Nd].
Qed.

Lemma step_inv c t : Inv c -> Inv (fst (step c t)).
Proof.
  intros (I1 & I2 & I3).
  (* a mutex on the mover's new stack that somebody else holds was on its old stack *)
  assert (M : forall a p st t2 p2 st2 l,
             nth_error c t = Some (a :: p, st) -> (forall l, a = Acq l -> held c l = false) ->
             nth_error c t2 = Some (p2, st2) -> In l (stack_after st a) -> In l st2 -> t = t2).
  { intros a p st t2 p2 st2 l Et Free H2 L1 L2.
    destruct (stack_after_in _ _ _ L1) as [L| ->]; [exact (I2 _ _ _ _ _ _ _ Et H2 L L2)|].
    assert (held c l = true) by (apply held_spec; eauto). rewrite (Free l eq_refl) in *. discriminate. }
  repeat split.
  - intros t' p' st' H. destruct (step_thread _ _ _ _ _ H) as [H0|(a & st & -> & Et & -> & _)]; [exact (I1 _ _ _ H0)|].
    apply ok_locks_tail, (I1 _ _ _ Et).
  - intros t1 t2 p1 st1 p2 st2 l H1 H2 L1 L2.
    destruct (step_thread _ _ _ _ _ H1) as [O1|(a1 & s1 & -> & E1 & -> & F1)];
      destruct (step_thread _ _ _ _ _ H2) as [O2|(a2 & s2 & -> & E2 & -> & F2)].
    + exact (I2 _ _ _ _ _ _ _ O1 O2 L1 L2).
    + symmetry. exact (M _ _ _ _ _ _ _ E2 F2 O1 L2 L1).
    + exact (M _ _ _ _ _ _ _ E1 F1 O2 L1 L2).
    + reflexivity.
  - intros t' p' st' H. destruct (step_thread _ _ _ _ _ H) as [H0|(a & st & -> & Et & -> & _)]; [exact (I3 _ _ _ H0)|].
    exact (stack_after_nodup _ _ _ (I1 _ _ _ Et) (I3 _ _ _ Et)).
Qed.

Lemma start_inv ps : forallb (ok_locks []) ps = true -> Inv (start ps).
Proof.
  intros H. repeat split.
  - intros t p st Ht. destruct (start_nth _ _ _ _ Ht) as [-> Hin]. exact (proj1 (forallb_forall _ _) H p Hin).
  - intros t1 t2 p1 st1 p2 st2 l H1 _ L1 _. destruct (start_nth _ _ _ _ H1) as [-> _]. destruct L1.
  - intros t p st Ht. destruct (start_nth _ _ _ _ Ht) as [-> _]. constructor.
Qed.

Lemma disciplined_inv lock_of ps sched : disciplined lock_of ps = true -> Inv (fst (exec (start ps) sched)).
Proof.
  intros D. apply (exec_preserves Inv step_inv), start_inv, forallb_forall. intros p Hp.
  exact (ok_prog_locks lock_of p [] [] (proj1 (forallb_forall _ _) D p Hp)).
Qed.

Definition bounded (B : nat) (c : conf) : Prop :=
  forall t p st l, nth_error c t = Some (p, st) -> In (Acq l) p -> l < B.

Lemma blocked_waits c t a p st : nth_error c t = Some (a :: p, st) -> enabled c t = false ->
  exists l, a = Acq l /\ held c l = true.
Proof.
  intros Ht En. unfold enabled, thread, prog in *. rewrite Ht in En.
  destruct a as [l| | | |]; try discriminate. exists l. split; [reflexivity|apply Bool.negb_false_iff, En].
Qed.

Lemma unfinished_thread c : finished c = false -> exists t a p st, nth_error c t = Some (a :: p, st).
Proof.
  unfold finished. induction c as [|[[|a q] s] r IH]; intros H; [discriminate| |exists 0, a, q, s; reflexivity].
  destruct (IH H) as (t & a & p & st & E). exists (S t), a, p, st. exact E.
Qed.

Theorem no_deadlock c B : Inv c -> bounded B c -> stuck c = false.
Proof.
  intros (I1 & _ & _) Bd. unfold stuck. destruct (finished c) eqn:Fin; [reflexivity|]. cbn [negb andb].
  destruct (forallb (fun t => negb (enabled c t)) (seq 0 (length c))) eqn:All; [exfalso|reflexivity].
  assert (Dis : forall t p st, nth_error c t = Some (p, st) -> enabled c t = false).
  { intros t p st Ht. apply Bool.negb_true_iff, (proj1 (forallb_forall _ _) All), in_seq.
    split; [lia|]. apply nth_error_Some. congruence. }
  (* whoever waits for l makes the holder of l wait for a higher one *)
  assert (Climb : forall k t l p st, B - l <= k -> nth_error c t = Some (Acq l :: p, st) -> False).
  { induction k as [|k IHk]; intros t l p st Hk Ht; pose proof (Bd _ _ _ l Ht (or_introl eq_refl)); [lia|].
    destruct (blocked_waits _ _ _ _ _ Ht (Dis _ _ _ Ht)) as (l0 & [= <-] & Hh).
    apply held_spec in Hh. destruct Hh as (t' & [|a p'] & st' & Ht' & Hl); pose proof (I1 _ _ _ Ht') as O.
    - (* the holder is not done: a program ends holding nothing *) destruct st'; [destruct Hl|discriminate O].
    - destruct (blocked_waits _ _ _ _ _ Ht' (Dis _ _ _ Ht')) as (l' & -> & _).
      pose proof (ok_locks_sorted_head _ _ _ O l Hl). apply (IHk t' l' p' st'); [lia|exact Ht']. }
  destruct (unfinished_thread c Fin) as (t & a & p & st & Ht).
  destruct (blocked_waits _ _ _ _ _ Ht (Dis _ _ _ Ht)) as (l & -> & _). exact (Climb (B - l) t l p st (le_n _) Ht).
Qed.

Lemma bounded_step B c t : bounded B c -> bounded B (fst (step c t)).
Proof.
  intros Bd t' p' st' l H Hin. destruct (step_thread _ _ _ _ _ H) as [H0|(a & st & -> & Et & _)].
  - exact (Bd _ _ _ _ H0 Hin).
  - apply (Bd _ _ _ _ Et). right. exact Hin.
Qed.

Definition max_lock (ps : list prog) : nat := S (list_max (flat_map acquisitions ps)).

Lemma bounded_start ps : bounded (max_lock ps) (start ps).
Proof.
  intros t p st l Ht Hin. destruct (start_nth _ _ _ _ Ht) as [_ Hp]. apply Nat.lt_succ_r.
  assert (H : In l (flat_map acquisitions ps)).
  { apply in_flat_map. exists p. split; [exact Hp|]. apply in_flat_map. exists (Acq l). split; [exact Hin|left; reflexivity]. }
  exact (proj1 (Forall_forall _ _) (proj1 (list_max_le _ _) (le_n _)) l H).
Qed.

(* the statement: threads that follow the discipline never deadlock, whatever the schedule *)
Theorem disciplined_never_deadlocks lock_of ps sched :
  disciplined lock_of ps = true -> stuck (fst (exec (start ps) sched)) = false.
Proof.
  intros D. apply (no_deadlock _ (max_lock ps)).
  - exact (disciplined_inv lock_of ps sched D).
  - apply (exec_preserves _ (bounded_step _)), bounded_start.
Qed.

(* a thread holds the mutex of every callback it has entered and not left *)
Definition Inv2 (lock_of : nat -> nat) (c : conf) : Prop :=
  forall t p st, nth_error c t = Some (p, st) ->
    exists ins, ok_prog lock_of st ins p = true /\ (forall o, In o ins -> In (lock_of o) st).

Lemma inside_needs_ins lock_of o : forall p st ins, ok_prog lock_of st ins p = true -> inside_cb o p = true -> In o ins.
Proof.
  induction p as [|a r IH]; intros st ins Ok Hin; [discriminate|].
  destruct (ok_prog_cons _ _ _ _ _ Ok) as [T C]. specialize (IH _ _ T).
  destruct a as [l|l|o'|o'|o' v]; cbn [inside_cb ins_after] in *; auto.
  - destruct (Nat.eqb_spec o o') as [->|Ne]; [discriminate|]. destruct (IH Hin) as [E|H]; [congruence|exact H].
  - destruct ins as [|x ins']; [discriminate|]. injection C as ->.
    destruct (Nat.eqb_spec o o') as [->|Ne]; [left; reflexivity|right; exact (IH Hin)].
Qed.

Lemma step_inv2 lock_of c t : Inv2 lock_of c -> Inv2 lock_of (fst (step c t)).
Proof.
  intros I t' p' st' H. destruct (step_thread _ _ _ _ _ H) as [H0|(a & st & -> & Et & -> & _)]; [exact (I _ _ _ H0)|].
  destruct (I _ _ _ Et) as (ins & Ok & Sub). destruct (ok_prog_cons _ _ _ _ _ Ok) as [T C].
  exists (ins_after ins a). split; [exact T|]. intros o Ho.
  destruct a as [l|l|o'|o'|o' v]; cbn [stack_after ins_after] in *; auto.
  - right. exact (Sub o Ho).
  - destruct st as [|x st']; destruct C as [[= ->] N]. rewrite Nat.eqb_refl.
    destruct (Sub o Ho) as [E|Hin]; [|exact Hin]. exfalso.
    assert (existsb (fun o0 => lock_of o0 =? l) ins = true); [|congruence].
    apply existsb_exists. exists o. split; [exact Ho|]. apply Nat.eqb_eq. congruence.
  - destruct Ho as [<-|Ho]; [apply memn_In, C|exact (Sub _ Ho)].
  - destruct ins as [|x ins']; [discriminate|]. apply Sub. right. exact Ho.
Qed.

Lemma start_inv2 lock_of ps : disciplined lock_of ps = true -> Inv2 lock_of (start ps).
Proof.
  intros D t p st Ht. destruct (start_nth _ _ _ _ Ht) as [-> Hp]. exists []. split; [|intros o []].
  exact (proj1 (forallb_forall _ _) D p Hp).
Qed.

Theorem callbacks_are_exclusive lock_of ps sched t1 t2 p1 st1 p2 st2 o :
  disciplined lock_of ps = true ->
  nth_error (fst (exec (start ps) sched)) t1 = Some (p1, st1) ->
  nth_error (fst (exec (start ps) sched)) t2 = Some (p2, st2) ->
  inside_cb o p1 = true -> inside_cb o p2 = true -> t1 = t2.
Proof.
  intros D H1 H2 In1 In2. destruct (disciplined_inv lock_of ps sched D) as (_ & Disj & _).
  pose proof (exec_preserves _ (step_inv2 lock_of) sched _ (start_inv2 lock_of ps D)) as I2.
  destruct (I2 _ _ _ H1) as (ins1 & Ok1 & Sub1). destruct (I2 _ _ _ H2) as (ins2 & Ok2 & Sub2).
  apply (Disj t1 t2 p1 st1 p2 st2 (lock_of o) H1 H2).
  - apply Sub1. eapply inside_needs_ins; eassumption.
  - apply Sub2. eapply inside_needs_ins; eassumption.
Qed.

(* the lock map of the subject's programs: subscriber o's mutex is numbered o *)
Definition idl (o : nat) : nat := o.

(* Subject::next with any work under the subscribers' cells: it is enough that, under subscriber i's
   cell (and the observer list), the work of `tail i v` follows the discipline and ends where it began *)
Definition tail_ok (base : nat) (tail : nat -> nat -> prog) (v i : nat) : Prop :=
  forall q, ok_prog idl [base + 2 + i; base] [] (tail i v ++ q) = ok_prog idl [base + 2 + i; base] [] q.

Lemma deliver_ok base tail v : forall subs rest,
  (forall i, In i subs -> tail_ok base tail v i) ->
  ok_prog idl [base] [] (deliver_to base tail v subs ++ rest) = ok_prog idl [base] [] rest.
Proof.
  induction subs as [|i r IH]; intros rest Ht; [reflexivity|].
  change (deliver_to base tail v (i :: r))
    with ((Acq (base + 2 + i) :: tail i v ++ [Rel (base + 2 + i)]) ++ deliver_to base tail v r).
  rewrite <- !app_assoc. cbn [app ok_prog forallb]. rewrite <- app_assoc, (Ht i (or_introl eq_refl)).
  cbn [app ok_prog existsb negb]. rewrite (proj2 (Nat.ltb_lt base (base + 2 + i))) by lia. rewrite Nat.eqb_refl.
  apply IH. intros j Hj. apply Ht. right. exact Hj.
Qed.

Theorem next_disciplined base tail v subs :
  (forall i, In i subs -> tail_ok base tail v i) -> ok_prog idl [] [] (next_prog base tail v subs) = true.
Proof.
  intros Ht. unfold next_prog, load_prog. cbn [app ok_prog forallb existsb negb].
  rewrite (proj2 (Nat.ltb_lt base (base + 1))) by lia. rewrite !Nat.eqb_refl. cbn [andb].
  rewrite deliver_ok by exact Ht. cbn. rewrite Nat.eqb_refl. reflexivity.
Qed.

Theorem subject_next_disciplined base v subs : ok_prog idl [] [] (next_prog base (probe_cell base) v subs) = true.
Proof.
  apply next_disciplined. intros i _ q. cbn [probe_cell app ok_prog memn idl]. rewrite !Nat.eqb_refl. reflexivity.
Qed.

Theorem subject_subscribe_disciplined base : ok_prog idl [] [] (subscribe_prog base) = true.
Proof. cbn. rewrite Nat.eqb_refl. reflexivity. Qed.

Theorem subject_unsubscribe_disciplined base i : ok_prog idl [] [] (unsubscribe_prog base i) = true.
Proof. cbn. rewrite Nat.eqb_refl. reflexivity. Qed.

(* one input of a two-input operator: the subject's only subscriber locks the shared cell *)
Theorem shared_input_disciplined base shared v : base + 2 < shared ->
  ok_prog idl [] [] (next_prog base (shared_tail shared) v [0]) = true.
Proof.
  intros H. apply next_disciplined. intros i [<-|[]] q. cbn [shared_tail app ok_prog forallb memn existsb idl].
  rewrite (proj2 (Nat.ltb_lt (base + 2 + 0) shared)), (proj2 (Nat.ltb_lt base shared)) by lia.
  rewrite !Nat.eqb_refl. reflexivity.
Qed.

(* all interleavings of a and b (as ConvertLaws.interleave, at kstep); fuel at least |a| + |b| *)
Fixpoint kinterleave (a b : list kstep) (fuel : nat) : list (list kstep) :=
  match fuel with
  | O => []
  | S f =>
      match a, b with
      | [], _ => [b]
      | _, [] => [a]
      | x :: a', y :: b' => map (cons x) (kinterleave a' b f) ++ map (cons y) (kinterleave a b' f)
      end
  end.

(* unsubscribe() of a task handle against a running poll: the interleavings of the executor's steps (holding
   the handle's mutex over the body, or not) with the canceller's in which no held mutex is taken *)
Definition executions (hold : bool) : list (list kstep) :=
  filter (kvalid kst0) (kinterleave (executor hold) canceller 12).

(* in every execution the body runs at most once and never after unsubscribe() has returned *)
Theorem cancel_waits_for_running_poll :
  forallb (fun xs => negb (k_bad (krun xs)) && Nat.leb (k_body_runs (krun xs)) 1) (executions true) = true.
Proof. vm_compute. reflexivity. Qed.

Theorem cancel_executions_counted : length (kinterleave (executor true) canceller 12) = 56 /\ length (executions true) = 2.
Proof. vm_compute. split; reflexivity. Qed.

(* letting go of the mutex while the body runs breaks it *)
Theorem cancel_without_the_lock_refuted :
  existsb (fun xs => k_bad (krun xs)) (executions false) = true.
Proof. vm_compute. reflexivity. Qed.
