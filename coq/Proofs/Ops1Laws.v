(* Every single-input operator machine computes its list specification, for every
   script (unbounded length), every parameter and every closure. *)
From RxSpec Require Import Ops1Spec.

Local Open Scope nat_scope.
Local Arguments Nat.leb : simpl never.
Local Arguments Nat.ltb : simpl never.
Local Arguments Nat.eqb : simpl never.
Local Arguments Nat.sub : simpl never.

Lemma mk_nil t : mk [] t = term_evs t.
Proof. reflexivity. Qed.

Lemma mk_cons x xs t : mk (x :: xs) t = Next x :: mk xs t.
Proof. reflexivity. Qed.

Lemma mk_app a b t : mk (a ++ b) t = map Next a ++ mk b t.
Proof. unfold mk. rewrite map_app, app_assoc. reflexivity. Qed.

Lemma on_done_mk t l : on_done t l = mk (match t with TDone => l | _ => [] end) t.
Proof. destruct t; reflexivity. Qed.

(* the end of a script: what the machine puts out on each of the three terminals *)
Ltac term_cases t := destruct t; cbn; rewrite ?app_nil_r; try reflexivity.

Lemma run1_ext o o' :
  (forall st e, step1 o st e = step1 o' st e) -> forall st s, run1 o st s = run1 o' st s.
Proof.
  intros H st s. revert st. induction s as [|e s IH]; intros st; [reflexivity|].
  cbn [run1]. rewrite H. destruct (step1 o' st e). rewrite IH. reflexivity.
Qed.

Lemma run1_dead o st : (forall e, step1 o st e = (st, [])) -> forall s, run1 o st s = [].
Proof.
  intros H s. induction s as [|e s IH]; [reflexivity|].
  cbn [run1]. rewrite H. destruct (is_term e); [reflexivity|exact IH].
Qed.

Lemma run1_pass o st :
  (forall e, step1 o st e = (st, [e])) -> forall items t, run1 o st (mk items t) = out items t.
Proof.
  intros H items t. induction items as [|x xs IH]; [destruct t; cbn; rewrite ?H; reflexivity|].
  rewrite mk_cons. cbn [run1 is_term]. rewrite H, IH. reflexivity.
Qed.

Lemma law_map f st items t : run1 (OMap f) st (mk items t) = out (map f items) t.
Proof. induction items as [|x xs IH]; [term_cases t|]. cbn. f_equal. exact IH. Qed.

Lemma law_filter p st items t : run1 (OFilter p) st (mk items t) = out (filter p items) t.
Proof.
  induction items as [|x xs IH]; [term_cases t|]. cbn.
  destruct (p x); cbn; [f_equal|]; exact IH.
Qed.

Lemma law_filter_map f st items t :
  run1 (OFilterMap f) st (mk items t) = out (filter_map_l f items) t.
Proof.
  induction items as [|x xs IH]; [term_cases t|]. cbn.
  destruct (f x); cbn; [f_equal|]; exact IH.
Qed.

Lemma law_on_error_map g st items t :
  run1 (OOnErrorMap g) st (mk items t) = out items (map_err g t).
Proof. induction items as [|x xs IH]; [term_cases t|]. cbn. f_equal. exact IH. Qed.

Lemma take_zero h items t : run1 (OTake 0) (SCount true h) (mk items t) = out [] t.
Proof. induction items as [|x xs IH]; [term_cases t|]. cbn. exact IH. Qed.

(* h hits so far, S m still to come *)
Lemma take_alive h m items t :
  run1 (OTake (h + S m)) (SCount true h) (mk items t) =
  if Nat.leb (S m) (length items) then out (firstn (S m) items) TDone else out items t.
Proof.
  revert h m. induction items as [|x xs IH]; intros h m; [destruct t; reflexivity|].
  rewrite mk_cons. cbn [run1 step1 is_term].
  rewrite (proj2 (Nat.ltb_lt h (h + S m))) by lia. destruct m as [|m].
  - rewrite Nat.add_1_r, Nat.eqb_refl. cbn.
    rewrite run1_dead by (intros [v| |]; cbn; [destruct (Nat.ltb _ _)|..]; reflexivity). reflexivity.
  - rewrite (proj2 (Nat.eqb_neq (S h) (h + S (S m)))) by lia.
    rewrite <- Nat.add_succ_comm, IH.
    change (Nat.leb (S (S m)) (length (x :: xs))) with (Nat.leb (S m) (length xs)).
    destruct (Nat.leb (S m) (length xs)); reflexivity.
Qed.

Lemma skip_gen n h items t :
  run1 (OSkip n) (SHits h) (mk items t) = out (skipn (n - h) items) t.
Proof.
  revert h. induction items as [|x xs IH]; intros h.
  - rewrite skipn_nil. term_cases t.
  - rewrite mk_cons. cbn [run1 step1 is_term]. rewrite IH, Nat.sub_succ_r.
    destruct (Nat.ltb_spec n (S h)); destruct (n - h) eqn:E; try lia; reflexivity.
Qed.

Lemma law_take_while p inc items t :
  run1 (OTakeWhile p inc) (SAlive true) (mk items t) = spec1 (OTakeWhile p inc) items t.
Proof.
  cbn [spec1]. induction items as [|x xs IH]; [term_cases t|].
  rewrite mk_cons. cbn [run1 step1 is_term take_while_l].
  destruct (p x).
  - rewrite IH. destruct (take_while_l p inc xs) as [a b]. reflexivity.
  - rewrite run1_dead by reflexivity. destruct inc; reflexivity.
Qed.

Lemma law_skip_while p items t :
  run1 (OSkipWhile p) (SFlag false) (mk items t) = out (drop_while_l p items) t.
Proof.
  induction items as [|x xs IH]; [term_cases t|].
  rewrite mk_cons. cbn [run1 step1 is_term drop_while_l].
  destruct (p x); cbn [negb].
  - exact IH.
  - rewrite run1_pass by (intros [v| |]; reflexivity). reflexivity.
Qed.

Lemma trim_lastn n q : trim n q = lastn n q.
Proof.
  unfold lastn. induction q as [|a q IH]; [reflexivity|].
  cbn [trim length]. destruct (Nat.leb_spec (S (length q)) n) as [H|H].
  - rewrite (proj2 (Nat.sub_0_le _ _) H). reflexivity.
  - rewrite IH, Nat.sub_succ_l by lia. reflexivity.
Qed.

Lemma skipn_skipn {A} (x y : nat) (l : list A) : skipn x (skipn y l) = skipn (x + y) l.
Proof.
  revert l. induction y as [|y IH]; intros l.
  - rewrite Nat.add_0_r. reflexivity.
  - destruct l as [|a l]; [rewrite !skipn_nil; reflexivity|].
    rewrite Nat.add_succ_r. cbn [skipn]. apply IH.
Qed.

Lemma lastn_lastn_app n a b : lastn n (lastn n a ++ b) = lastn n (a ++ b).
Proof.
  unfold lastn. set (k := length a - n).
  assert (H : skipn k a ++ b = skipn k (a ++ b)).
  { rewrite skipn_app. replace (k - length a) with 0 by lia. reflexivity. }
  rewrite H, skipn_skipn. f_equal. rewrite skipn_length, app_length. lia.
Qed.

Lemma take_last_gen n seen items t :
  run1 (OTakeLast n) (SQueue (lastn n seen)) (mk items t) = on_done t (lastn n (seen ++ items)).
Proof.
  revert seen. induction items as [|x xs IH]; intros seen.
  - rewrite app_nil_r. term_cases t.
  - rewrite mk_cons. cbn [run1 step1 is_term app].
    rewrite trim_lastn, lastn_lastn_app, IH, <- app_assoc. reflexivity.
Qed.

(* whatever n: the first `cd` arrivals are only queued, every later one releases the oldest *)
Lemma skip_last_gen n cd q items t :
  run1 (OSkipLast n) (SCountQ cd q) (mk items t) = out (firstn (length items - cd) (q ++ items)) t.
Proof.
  revert cd q. induction items as [|x xs IH]; intros cd q; [term_cases t|].
  rewrite mk_cons. cbn [run1 step1 is_term]. destruct cd as [|cd].
  - rewrite Nat.sub_0_r. destruct q as [|a q]; cbn [app]; rewrite IH, Nat.sub_0_r, <- ?app_assoc; reflexivity.
  - rewrite IH, <- app_assoc. reflexivity.
Qed.

Lemma skip_last_zero q items t :
  run1 (OSkipLast 0) (SCountQ 0 q) (mk items t) = out (firstn (length items) (q ++ items)) t.
Proof. rewrite skip_last_gen, Nat.sub_0_r. reflexivity. Qed.

Lemma last_opt_snoc l x : last_opt (l ++ [x]) = Some x.
Proof. unfold last_opt. rewrite rev_app_distr. reflexivity. Qed.

Lemma last_gen seen items t :
  run1 OLast (SOpt (last_opt seen)) (mk items t) =
  on_done t (match last_opt (seen ++ items) with Some x => [x] | None => [] end).
Proof.
  revert seen. induction items as [|x xs IH]; intros seen.
  - rewrite app_nil_r. destruct (last_opt seen); term_cases t.
  - rewrite mk_cons. cbn [run1 step1 is_term app].
    rewrite <- (last_opt_snoc seen x), IH, <- app_assoc. reflexivity.
Qed.

Lemma scan_gen f i a items t : run1 (OScan f i) (SAcc a) (mk items t) = out (scan_l f a items) t.
Proof.
  revert a. induction items as [|x xs IH]; intros a; [term_cases t|].
  rewrite mk_cons. cbn [run1 step1 is_term scan_l]. rewrite IH. reflexivity.
Qed.

Lemma law_default_if_empty d items t :
  run1 (ODefaultIfEmpty d) (SFlag true) (mk items t) = spec1 (ODefaultIfEmpty d) items t.
Proof.
  cbn [spec1]. destruct items as [|x xs]; [term_cases t|].
  rewrite mk_cons. cbn [run1 step1 is_term].
  rewrite run1_pass by (intros [v| |]; reflexivity). reflexivity.
Qed.

Lemma distinct_gen (k : val -> val) seen items t :
  run1 (ODistinctKey k) (SQueue seen) (mk items t) = out (distinct_l k seen items) t.
Proof.
  revert seen. induction items as [|x xs IH]; intros seen; [term_cases t|].
  rewrite mk_cons. cbn [run1 step1 is_term distinct_l].
  destruct (mem (k x) seen); rewrite IH; reflexivity.
Qed.

Lemma until_key_gen (k : val -> val) prev items t :
  run1 (ODistinctUntilKeyChanged k) (SOpt prev) (mk items t) = out (until_changed_l k prev items) t.
Proof.
  revert prev. induction items as [|x xs IH]; intros prev; [term_cases t|].
  rewrite mk_cons. cbn [run1 step1 is_term until_changed_l].
  destruct prev as [w|]; [destruct (val_eqb (k w) (k x))|]; rewrite IH; reflexivity.
Qed.

Lemma pairwise_gen a prev items t :
  run1 OPairwise (SPair a prev) (mk items t) = out (pairs_l prev items) t.
Proof.
  revert a prev. induction items as [|x xs IH]; intros a prev; [term_cases t|].
  rewrite mk_cons. cbn [run1 step1 is_term pairs_l].
  destruct prev; rewrite IH; reflexivity.
Qed.

Lemma buffer_gen n data items t :
  run1 (OBufferCount n) (SQueue data) (mk items t) =
  let '(full, rest) := chunks_l n data items in
  match t with
  | TDone => out (full ++ match rest with [] => [] | _ => [VL rest] end) TDone
  | _ => out full t
  end.
Proof.
  revert data. induction items as [|x xs IH]; intros data.
  - cbn [chunks_l]. destruct data; term_cases t.
  - rewrite mk_cons. cbn [run1 step1 is_term chunks_l].
    destruct (Nat.leb n (length (data ++ [x]))).
    + rewrite IH. destruct (chunks_l n [] xs) as [full rest].
      assert (E : emit_buf (data ++ [x]) = [Next (VL (data ++ [x]))]) by (destruct data; reflexivity).
      rewrite E. destruct t; reflexivity.
    + rewrite IH. reflexivity.
Qed.

Lemma law_contains target items t :
  run1 (OContains target) (SAlive true) (mk items t) = spec1 (OContains target) items t.
Proof.
  cbn [spec1]. induction items as [|x xs IH]; [term_cases t|].
  rewrite mk_cons. cbn [run1 step1 is_term index_of].
  destruct (val_eqb target x); cbn [orb].
  - rewrite run1_dead by reflexivity. reflexivity.
  - exact IH.
Qed.

Lemma collect_gen c items t : run1 OCollect (SQueue c) (mk items t) = on_done t [VL (c ++ items)].
Proof.
  revert c. induction items as [|x xs IH]; intros c.
  - rewrite app_nil_r. term_cases t.
  - rewrite mk_cons. cbn [run1 step1 is_term app]. rewrite IH, <- app_assoc. reflexivity.
Qed.

Theorem op_meets_spec (o : op1) (items : list val) (t : term) :
  run_op o (mk items t) = spec1 o items t.
Proof.
  unfold run_op. destruct o; cbn [sub1 app init1].
  - apply law_map.
  - rewrite (run1_ext _ (OMap (fun _ => c))) by reflexivity. apply law_map.
  - apply law_filter.
  - apply law_filter_map.
  - apply run1_pass. reflexivity.
  - apply law_on_error_map.
  - destruct n as [|n]; [apply take_zero|apply (take_alive 0 n)].
  - cbn [spec1]. rewrite skip_gen, Nat.sub_0_r. reflexivity.
  - apply law_take_while.
  - apply law_skip_while.
  - apply (take_last_gen n []).
  - apply (skip_last_gen n n []).
  - apply (last_gen []).
  - apply scan_gen.
  - apply law_default_if_empty.
  - rewrite (run1_ext _ (ODistinctKey (fun x => x))) by reflexivity. apply distinct_gen.
  - apply distinct_gen.
  - rewrite (run1_ext _ (ODistinctUntilKeyChanged (fun x => x))) by reflexivity. apply until_key_gen.
  - apply until_key_gen.
  - apply pairwise_gen.
  - apply buffer_gen.
  - apply law_contains.
  - apply (collect_gen []).
  - rewrite run1_pass by reflexivity. cbn [spec1]. unfold out. rewrite mk_app. reflexivity.
Qed.
