(* C18: one body, two cell types, one thread: the same notifications. *)
From RxModel Require Import Forms.
Local Open Scope nat_scope.

(* The two runs go the same way up to the first re-entrant acquisition, where one panics and the
   other hangs, having delivered the same notifications. *)
Lemma cells_related p held seen :
  (exists t, run_cells RefCellKind held p seen = Finished t /\ run_cells MutexKind held p seen = Finished t) \/
  (exists t, run_cells RefCellKind held p seen = Panicked t /\ run_cells MutexKind held p seen = Hung t).
Proof.
  revert held seen. induction p as [|op r IH]; intros held seen; [left; eauto|].
  destruct op as [c|c|e]; cbn [run_cells]; [|apply IH..].
  destruct (memn c held); [right; eauto|apply IH].
Qed.

Theorem cells_same_trace : forall p held seen,
  trace_of (run_cells RefCellKind held p seen) = trace_of (run_cells MutexKind held p seen) /\
  finished (run_cells RefCellKind held p seen) = finished (run_cells MutexKind held p seen).
Proof.
  intros p held seen.
  destruct (cells_related p held seen) as [(t & -> & ->)|(t & -> & ->)]; split; reflexivity.
Qed.

Theorem cells_agree_when_finished p held seen :
  finished (run_cells RefCellKind held p seen) = true ->
  run_cells RefCellKind held p seen = run_cells MutexKind held p seen.
Proof.
  destruct (cells_related p held seen) as [(t & -> & ->)|(t & -> & ->)]; [reflexivity|discriminate].
Qed.

Theorem failure_modes p held seen :
  (forall t, run_cells RefCellKind held p seen <> Hung t) /\ (forall t, run_cells MutexKind held p seen <> Panicked t).
Proof.
  destruct (cells_related p held seen) as [(t & -> & ->)|(t & -> & ->)]; split; discriminate.
Qed.
