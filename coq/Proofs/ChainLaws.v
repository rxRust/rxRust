(* Event-by-event execution of a chain equals the stage-by-stage composition of its
   operators, and therefore the composition of their list specifications. *)
From RxModel Require Import Chain.
From RxSpec Require Import Ops1Spec.
From RxProofs Require Import Ops1Laws.

Lemma wf_mk items t : wf (mk items t) = true.
Proof. induction items as [|x xs IH]; [destruct t; reflexivity|exact IH]. Qed.

Lemma mk_items_term s : wf s = true -> mk (items_of s) (term_of s) = s.
Proof.
  induction s as [|e s IH]; intros H; [reflexivity|].
  destruct e; cbn [wf items_of term_of] in *.
  - rewrite mk_cons, IH by exact H. reflexivity.
  - destruct s; [reflexivity|discriminate].
  - destruct s; [reflexivity|discriminate].
Qed.

Lemma wf_slot s : wf (slot s) = true.
Proof. induction s as [|e s IH]; [reflexivity|]. destruct e; cbn; auto. Qed.

Lemma slot_mk items t : slot (mk items t) = mk items t.
Proof. induction items as [|x xs IH]; [destruct t; reflexivity|]. cbn. f_equal. exact IH. Qed.

Lemma slot_wf s : wf s = true -> slot s = s.
Proof. intros H. rewrite <- (mk_items_term s H). apply slot_mk. Qed.

Lemma wf_spec1 o items t : wf (spec1 o items t) = true.
Proof.
  destruct o; cbn [spec1]; unfold out; try apply wf_mk; try (rewrite on_done_mk; apply wf_mk).
  - destruct n; [apply wf_mk|]. destruct (Nat.leb _ _); apply wf_mk.
  - destruct (take_while_l p inclusive items); apply wf_mk.
  - destruct items; [destruct t|]; apply wf_mk.
  - destruct (chunks_l n [] items). destruct t; apply wf_mk.
  - destruct (index_of target items); rewrite ?on_done_mk; apply wf_mk.
Qed.

Lemma run_op_spec o s : wf s = true -> run_op o s = stage_spec o s.
Proof. intros H. unfold stage_spec. rewrite <- op_meets_spec, mk_items_term by exact H. reflexivity. Qed.

Lemma wf_run_op o s : wf s = true -> wf (run_op o s) = true.
Proof. intros H. rewrite run_op_spec by exact H. apply wf_spec1. Qed.

Lemma feed_dead nd evs : n_live nd = false -> feed nd evs = (nd, []).
Proof. intros H. destruct evs; cbn; [reflexivity|]. rewrite H. reflexivity. Qed.

Lemma feed_out nd evs :
  snd (feed nd evs) = if n_live nd then run1 (n_op nd) (n_st nd) evs else [].
Proof.
  revert nd. induction evs as [|e r IH]; intros [o st [|]]; try reflexivity.
  cbn [feed run1 n_live n_op n_st]. destruct (step1 o st e) as [st' out].
  specialize (IH {| n_op := o; n_st := st'; n_live := negb (is_term e) |}).
  destruct (feed _ r) as [nd'' out']. cbn [snd n_live n_op n_st] in *. rewrite IH.
  destruct (is_term e); reflexivity.
Qed.

Lemma feed_app nd a b :
  feed nd (a ++ b) =
  let '(nd1, o1) := feed nd a in let '(nd2, o2) := feed nd1 b in (nd2, o1 ++ o2).
Proof.
  revert nd. induction a as [|e r IH]; intros nd.
  - cbn. destruct (feed nd b). reflexivity.
  - cbn [app feed]. destruct (n_live nd) eqn:L.
    + destruct (step1 (n_op nd) (n_st nd) e) as [st' out].
      rewrite IH. destruct (feed _ r) as [nd1 o1]. destruct (feed nd1 b) as [nd2 o2].
      rewrite app_assoc. reflexivity.
    + rewrite feed_dead by exact L. reflexivity.
Qed.

Lemma push_app ch a b :
  push ch (a ++ b) =
  let '(ch1, o1) := push ch a in let '(ch2, o2) := push ch1 b in (ch2, o1 ++ o2).
Proof.
  revert a b. induction ch as [|nd rest IH]; intros a b; [reflexivity|].
  cbn [push]. rewrite feed_app.
  destruct (feed nd a) as [nd1 oa]. destruct (feed nd1 b) as [nd2 ob] eqn:E.
  rewrite IH. destruct (push rest oa) as [r1 o1]. cbn [push]. rewrite E.
  destruct (push r1 ob) as [r2 o2]. reflexivity.
Qed.

Lemma drive_push ch s : drive ch s = snd (push ch s).
Proof.
  revert ch. induction s as [|e r IH]; intros ch.
  - cbn. clear. induction ch as [|nd rest IH]; [reflexivity|].
    cbn. destruct (push rest []) as [r o] in *. cbn in *. exact IH.
  - cbn [drive]. change (e :: r) with ([e] ++ r). rewrite push_app.
    destruct (push ch [e]) as [ch1 o1]. rewrite IH.
    destruct (push ch1 r). reflexivity.
Qed.

Theorem hot_eq_cold os s : run_hot os s = run_cold os s.
Proof.
  unfold run_hot, run_cold. destruct (subscribe_chain os) as [ch pre].
  rewrite drive_push. destruct (push ch s). reflexivity.
Qed.

Definition stages (os : list op1) (s : list ev) : list ev :=
  fold_left (fun acc o => run_op o acc) os s.

Theorem cold_eq_stages os s : run_cold os s = stages os s.
Proof.
  revert s. induction os as [|o rest IH]; intros s; [reflexivity|].
  change (stages (o :: rest) s) with (stages rest (run_op o s)).
  rewrite <- IH. unfold run_cold. cbn [subscribe_chain].
  destruct (subscribe_chain rest) as [rest' out_rest].
  destruct (push rest' (sub1 o)) as [rest'' out_o] eqn:E1.
  cbn [push]. pose proof (feed_out (node_init o) s) as F. cbn [node_init n_live n_op n_st] in F.
  destruct (feed (node_init o) s) as [nd' outs]. cbn [snd] in F. subst outs.
  destruct (push rest'' (run1 o (init1 o) s)) as [r3 out3] eqn:E2.
  unfold run_op. rewrite push_app, E1, E2.
  rewrite app_assoc. reflexivity.
Qed.

Lemma wf_stages os s : wf s = true -> wf (stages os s) = true.
Proof.
  revert s. induction os as [|o rest IH]; intros s H; [exact H|].
  cbn. apply IH. apply wf_run_op. exact H.
Qed.

Theorem stages_eq_spec os s : wf s = true -> stages os s = chain_spec os s.
Proof.
  revert s. induction os as [|o rest IH]; intros s H; [reflexivity|].
  unfold stages, chain_spec. cbn [fold_left]. rewrite run_op_spec by exact H.
  apply IH. rewrite <- run_op_spec by exact H. apply wf_run_op. exact H.
Qed.

(* The property-level statement: every chain, every well-formed script, cold or hot. *)
Theorem chain_meets_spec os s :
  wf s = true -> run_cold os s = chain_spec os s /\ run_hot os s = chain_spec os s.
Proof.
  intros H. rewrite hot_eq_cold, cold_eq_stages, stages_eq_spec by exact H. split; reflexivity.
Qed.

Theorem chain_output_wf os s : wf s = true -> wf (run_hot os s) = true.
Proof. intros H. rewrite hot_eq_cold, cold_eq_stages. apply wf_stages. exact H. Qed.
