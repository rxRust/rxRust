(* C13: subscriptions of clones of a cold pipeline are independent. *)
From RxModel Require Import Indep.
From RxProofs Require Import ChainLaws.
Local Open Scope nat_scope.

Definition erase (nd : hnode) : option node :=
  match h_st nd with inl st => Some {| n_op := h_op nd; n_st := st; n_live := h_live nd |} | inr _ => None end.

(* a node whose state is its own *)
Definition of_node (nd : node) : hnode := {| h_op := n_op nd; h_st := inl (n_st nd); h_live := n_live nd |}.

Lemma hfeed_of h : forall evs nd, hfeed h (of_node nd) evs = (h, of_node (fst (feed nd evs)), snd (feed nd evs)).
Proof.
  induction evs as [|e r IH]; intros [o st live]; cbn [hfeed feed of_node read write h_op h_st h_live n_op n_st n_live fst snd]; [reflexivity|].
  destruct live; [|reflexivity]. destruct (step1 o st e) as [st' out].
  specialize (IH {| n_op := o; n_st := st'; n_live := negb (is_term e) |}). unfold of_node at 1 in IH. cbn [n_op n_st n_live] in IH.
  rewrite IH. destruct (feed _ r). reflexivity.
Qed.

Lemma hpush_of h : forall ch evs, hpush h (map of_node ch) evs = (h, map of_node (fst (push ch evs)), snd (push ch evs)).
Proof.
  induction ch as [|nd rest IH]; intros evs; cbn [map hpush push]; [reflexivity|].
  rewrite hfeed_of. destruct (feed nd evs) as [nd' out]. cbn [fst snd]. rewrite IH. destruct (push rest out). reflexivity.
Qed.

Lemma hsubscribe_of h : forall pv, all_fresh pv = true ->
  hsubscribe h pv = (h, map of_node (fst (subscribe_chain (map fst pv))), snd (subscribe_chain (map fst pv))).
Proof.
  induction pv as [|[o hm] rest IH]; intros A; cbn [hsubscribe subscribe_chain map fst]; [reflexivity|].
  cbn in A. destruct hm; [|discriminate]. rewrite (IH A). destruct (subscribe_chain (map fst rest)) as [rest' out_rest].
  cbn [fst snd]. rewrite hpush_of. destruct (push rest' (sub1 o)). reflexivity.
Qed.

(* one subscription: the shared heap is not touched, the output is the pure run *)
Theorem sub_run_pure h pv s : all_fresh pv = true -> sub_run h pv s = (h, run_cold (map fst pv) s).
Proof.
  intros A. unfold sub_run, run_cold. rewrite (hsubscribe_of h pv A). destruct (subscribe_chain (map fst pv)) as [ch pre].
  cbn [fst snd]. rewrite hpush_of. destruct (push ch s). reflexivity.
Qed.

(* any number of successive subscriptions of clones see the same *)
Theorem successive_subscriptions_agree pv s : all_fresh pv = true ->
  forall k h, sub_runs h pv s k = repeat (run_cold (map fst pv) s) k.
Proof.
  intros A. induction k as [|k IH]; intros h; [reflexivity|]. cbn [sub_runs repeat].
  rewrite (sub_run_pure h pv s A). rewrite IH. reflexivity.
Qed.

(* a subscription made from inside a callback of another one: both see the same *)
Theorem nested_subscriptions_agree pv s at_ h : all_fresh pv = true ->
  nested_run h pv s at_ = (run_cold (map fst pv) s, run_cold (map fst pv) s).
Proof.
  intros A. unfold nested_run. rewrite (hsubscribe_of h pv A), hpush_of, (sub_run_pure h pv s A), hpush_of.
  unfold run_cold. destruct (subscribe_chain (map fst pv)) as [ch pre]. cbn [fst snd].
  assert (E : snd (push ch s) = snd (push ch (firstn at_ s)) ++ snd (push (fst (push ch (firstn at_ s))) (skipn at_ s))).
  { rewrite <- (firstn_skipn at_ s) at 1. rewrite push_app. destruct (push ch (firstn at_ s)) as [c2 oa]. cbn [fst snd]. destruct (push c2 _). reflexivity. }
  destruct (push ch s) as [c o]. cbn [snd] in E. rewrite E. reflexivity.
Qed.

(* the hypothesis matters: with a counter shared between clones the second subscription differs *)
Theorem shared_state_breaks_independence :
  exists pv s, sub_runs [] pv s 2 <> repeat (run_cold (map fst pv) s) 2.
Proof.
  exists [(OTake 1, HShared 0)], [Next (VZ 1); Next (VZ 2); Done]. vm_compute. discriminate.
Qed.
