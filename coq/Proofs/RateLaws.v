(* C09: the rate-limiting operators (debounce, throttle) never invent, duplicate or reorder
   items, and flush the pending item before a completion, for every label sequence.
   The relation between the system and the collecting walk: the link of CollectLaws, what the
   window tasks guarantee (`Tasks`), what has been delivered against what has been accepted
   (`Items`); one lemma per kind of label, over both operators and the three edges. *)
From RxModel Require Import Timed.
From RxSpec Require Import TimedSpec.
From RxProofs Require Import ValEq TimedLaws CollectLaws.
Open Scope N_scope.

Lemma is_subseq_nil b : is_subseq [] b = true.
Proof. destruct b; reflexivity. Qed.

Lemma is_subseq_refl a : is_subseq a a = true.
Proof. induction a as [|x a IH]; cbn; [reflexivity|]. rewrite val_eqb_refl. exact IH. Qed.

Lemma is_subseq_app_r : forall b a c, is_subseq a b = true -> is_subseq a (b ++ c) = true.
Proof.
  induction b as [|y b IH]; intros a c H.
  - destruct a; [apply is_subseq_nil|discriminate].
  - destruct a as [|x a]; [reflexivity|]. cbn in *. destruct (val_eqb x y); auto.
Qed.

Lemma is_subseq_snoc : forall b a v, is_subseq a b = true -> is_subseq (a ++ [v]) (b ++ [v]) = true.
Proof.
  induction b as [|y b IH]; intros a v H.
  - destruct a; [cbn; rewrite val_eqb_refl; reflexivity|discriminate].
  - destruct a as [|x a]; cbn in *.
    + destruct (val_eqb v y); [|apply (IH [])]; apply is_subseq_nil.
    + destruct (val_eqb x y); [apply IH; exact H|apply (IH (x :: a)); exact H].
Qed.

(* the test of final_item_ok *)
Definition last_match (acc src : list val) : bool :=
  match rev src, rev acc with
  | [], _ => true
  | v :: _, x :: _ => val_eqb x v
  | _ :: _, [] => false
  end.

Lemma last_match_snoc a b v : last_match (a ++ [v]) (b ++ [v]) = true.
Proof. unfold last_match. rewrite !rev_app_distr. cbn. apply val_eqb_refl. Qed.

(* Over values: `fl` the operator flushes on completion, `c` the output has completed, `al` the slot
   is occupied, `dn` the input has terminated, `tr` pending, `fin` the walk saw a terminal, `acc`
   delivered, `its` accepted. *)
Definition Items (fl c al dn : bool) (tr : option val) (fin : bool) (acc its : list val) : Prop :=
  is_subseq acc its = true /\
  (* the pending item is the last one accepted, and has not been delivered *)
  (al = true -> forall v, tr = Some v -> exists pre, its = pre ++ [v] /\ is_subseq acc pre = true) /\
  (fl = true -> al = true -> tr = None -> last_match acc its = true) /\
  (c = true -> dn = true /\ fin = true /\ (fl = true -> last_match acc its = true)).

Definition fire (al : bool) (tr : option val) (acc : list val) : list val :=
  match tr with Some v => if al then acc ++ [v] else acc | None => acc end.

Lemma items_stash {fl c al dn tr fin acc its} v :
  Items fl c al dn tr fin acc its -> dn = false -> Items fl c al dn (Some v) fin acc (its ++ [v]).
Proof.
  intros (I1 & I2 & I3 & I4) ->. split; [|split; [|split]].
  - apply is_subseq_app_r, I1.
  - intros _ v0 E. inversion E; subst v0. exists its. auto.
  - discriminate.
  - intros Hc. destruct (I4 Hc) as [E _]. discriminate E.
Qed.

(* delivered at once (leading edge), or dropped (no flush) *)
Lemma items_pass {fl c al dn tr fin acc} acc' {its} v :
  Items fl c al dn tr fin acc its -> dn = false -> (al = true -> tr = None) ->
  acc' = (if al then acc ++ [v] else acc) \/ (fl = false /\ acc' = acc) ->
  Items fl c al dn tr fin acc' (its ++ [v]).
Proof.
  intros (I1 & I2 & I3 & I4) -> Hn K. split; [|split; [|split]].
  - destruct K as [->|[_ ->]]; [destruct al|]; auto using is_subseq_snoc, is_subseq_app_r.
  - intros Ha v0 E. rewrite (Hn Ha) in E. discriminate E.
  - intros Hfl Ha _. destruct K as [->|[E _]]; [rewrite Ha; apply last_match_snoc|congruence].
  - intros Hc. destruct (I4 Hc) as [E _]. discriminate E.
Qed.

Lemma items_fire {fl c al dn tr fin acc its} :
  Items fl c al dn tr fin acc its -> (fin = true -> al = false) -> Items fl c al dn None fin (fire al tr acc) its.
Proof.
  intros (I1 & I2 & I3 & I4) Hf. unfold fire. split; [|split; [|split]].
  - destruct tr as [v|]; [|exact I1]. destruct al; [|exact I1].
    destruct (I2 eq_refl v eq_refl) as (pre & -> & Hs). apply is_subseq_snoc, Hs.
  - discriminate.
  - intros Hfl Ha _. destruct tr as [v|]; [|apply I3; auto]. rewrite Ha.
    destruct (I2 Ha v eq_refl) as (pre & -> & _). apply last_match_snoc.
  - intros Hc. destruct (I4 Hc) as (A & B & C). rewrite (Hf B). destruct tr; auto.
Qed.

Lemma items_complete {fl c al dn fin acc its} :
  Items fl c al dn None fin acc its -> dn = false -> Items fl (c || al) false true None (fin || al) acc its.
Proof.
  intros (I1 & I2 & I3 & I4) ->. split; [exact I1|split; [discriminate|split; [discriminate|]]].
  intros Hc. destruct c; [destruct (I4 eq_refl) as [E _]; discriminate E|]. cbn in Hc. subst al.
  rewrite Bool.orb_true_r. auto.
Qed.

Lemma items_mono {fl c al al' dn dn' tr fin fin' acc its} :
  Items fl c al dn tr fin acc its ->
  (al' = true -> al = true) -> (dn = true -> dn' = true) -> (fin = true -> fin' = true) ->
  Items fl c al' dn' tr fin' acc its.
Proof.
  intros (I1 & I2 & I3 & I4) Ha Hd Hf. split; [exact I1|split; [|split]]; auto.
  intros Hc. destruct (I4 Hc) as (A & B & C). auto.
Qed.

(* `task_handler.is_closed()` in ThrottleObserver::next *)
Definition no_window (s : tsys) : bool :=
  match handler s with Some h => task_finished s h | None => true end.

(* debounce: every window task but the current one is cancelled or finished *)
Definition others_quiet (s : tsys) : Prop :=
  forall i tk, nth_error (tasks s) i = Some tk -> handler s = Some i \/ status_quiet tk.

Definition all_quiet (ts : list task) : Prop := forall i tk, nth_error ts i = Some tk -> status_quiet tk.

Lemma cancel_current_quiet s :
  others_quiet s -> all_quiet (tasks (match handler s with Some h => cancel_task s h | None => s end)).
Proof.
  intros Hq i tk Hi. destruct (handler s) as [h|] eqn:Eh; [unfold cancel_task in Hi; destruct (nth_error (tasks s) h) eqn:Et|].
  1: cbn [tasks upd_tasks] in Hi; apply nth_error_set_nth in Hi; destruct Hi as [[_ ->]|[Hne Hi]]; [right; reflexivity|].
  all: destruct (Hq i tk Hi) as [E|Q]; [congruence|exact Q].
Qed.

Lemma others_quiet_new (ts : list task) (new : task) :
  all_quiet ts -> forall i tk, nth_error (ts ++ [new]) i = Some tk -> Some (length ts) = Some i \/ status_quiet tk.
Proof.
  intros Hq i tk Hi. apply nth_error_snoc in Hi. destruct Hi as [[_ Hi]|[-> _]]; [right; apply (Hq i tk Hi)|left; reflexivity].
Qed.

Lemma others_quiet_set s t tk tkF :
  others_quiet s -> nth_error (tasks s) t = Some tk -> (status_quiet tk -> status_quiet tkF) ->
  others_quiet (upd_tasks s (set_nth (tasks s) t tkF)).
Proof.
  intros Hq Et Himp i tk' Hi. cbn [tasks handler upd_tasks] in *. apply nth_error_set_nth in Hi.
  destruct Hi as [[-> ->]|[_ Hi]]; [|apply (Hq i tk' Hi)]. destruct (Hq t tk Et) as [H|Q]; [left; exact H|right; apply Himp, Q].
Qed.

Lemma no_window_set s t tk tkF :
  nth_error (tasks s) t = Some tk -> t_value tkF = t_value tk ->
  no_window (upd_tasks s (set_nth (tasks s) t tkF)) = no_window s.
Proof.
  intros Et Hv. unfold no_window, task_finished. cbn [tasks handler upd_tasks].
  destruct (handler s) as [h|]; [|reflexivity].
  destruct (Nat.eq_dec t h) as [<-|Hne].
  - rewrite (nth_error_set_nth_eq _ _ _ _ Et), Et. exact Hv.
  - rewrite nth_error_set_nth_neq by exact Hne. reflexivity.
Qed.

Definition rate_op (o : top) : Prop :=
  match o with TDebounce _ | TThrottle _ _ => True | _ => False end.

(* the operators that flush the pending item before a completion *)
Definition has_final (o : top) : bool :=
  match o with
  | TDebounce _ => true
  | TThrottle _ ELeading => false
  | TThrottle _ _ => true
  | _ => false
  end.

(* While the slot is occupied.  debounce: only the current window task can run, and unsubscribe()
   cancels it; throttle: nothing is pending unless a window is open (leading edge: never), and
   unsubscribe() empties the slot.  False of any other operator: RR restricts `o` (rr_rate_op). *)
Definition Tasks (o : top) (s : tsys) (unsub : bool) : Prop :=
  match o with
  | TDebounce _ => alive s = true -> others_quiet s /\ (unsub = true -> handler s = None)
  | TThrottle _ e =>
      (alive s = true -> no_window s = true -> trailing s = None) /\ (e = ELeading -> trailing s = None) /\
      (unsub = true -> alive s = false)
  | _ => False
  end.

(* `c`: a completion has been put out (the walking state does not tell it from an error) *)
Definition RR (o : top) (c : bool) (s : tsys) (w : wstate) (acc : list val) : Prop :=
  Conn s w /\ Forall (fun j => j = JTrailing) (jobs s) /\ Tasks o s (w_unsub w) /\
  Items (has_final o) c (alive s) (src_done s) (trailing s) (w_finished w) acc (src_items w).

Lemma completed_out_app a b : completed_out (a ++ b) = completed_out a || completed_out b.
Proof. apply existsb_app. Qed.

Lemma rr_rate_op o c s w acc : RR o c s w acc -> rate_op o.
Proof. intros (_ & _ & T & _). destruct o; try contradiction; exact I. Qed.

Definition sim_goal (o : top) (ls : list tlab) (c : bool) (s : tsys) (w : wstate) (acc : list val) (l : tlab) : Prop :=
  exists wa', walk (collect_step ls) (w_label w (Some l), acc) (snd (tstep o s l)) = Some wa' /\
              RR o (c || completed_out (snd (tstep o s l))) (fst (tstep o s l)) (fst wa') (snd wa').

Lemma sim_uncompleted o ls c s w acc l w' acc' :
  walk (collect_step ls) (w_label w (Some l), acc) (snd (tstep o s l)) = Some (w', acc') ->
  completed_out (snd (tstep o s l)) = false -> RR o c (fst (tstep o s l)) w' acc' -> sim_goal o ls c s w acc l.
Proof. intros Hw Hc HR. exists (w', acc'). rewrite Hc, Bool.orb_false_r. auto. Qed.

Lemma sim_idle o ls c s w acc l : idle_label l -> RR o c s w acc -> sim_goal o ls c s w acc l.
Proof.
  intros Hl HR. pose proof HR as (C & R). pose proof R as (_ & T & _).
  destruct l; try contradiction; destruct o; try contradiction;
    (eapply sim_uncompleted; [reflexivity|reflexivity|]); exact HR || exact (conj (conn_adv _ _ _ C) R).
Qed.

Lemma sim_unsub o ls c s w acc : RR o c s w acc -> sim_goal o ls c s w acc LUnsub.
Proof.
  intros (C0 & J & T & I). pose proof (conn_unsub s) as C.
  destruct o; try contradiction; cbn [Tasks] in T.
  - (* debounce: the window task is cancelled *)
    eapply sim_uncompleted; cbn [tstep on_unsub handler upd_src]; destruct (handler s) as [h|] eqn:Eh; try reflexivity; cbn [fst].
    + rewrite cancel_task_upd. refine (conj _ (conj J (conj _ I))); [apply C; auto|].
      intros Ha. destruct (T Ha) as [Q _]. split; [|reflexivity].
      pose proof (cancel_current_quiet (upd_src s false (src_done s)) Q) as Q'. cbn [handler upd_src] in Q'. rewrite Eh in Q'.
      intros i tk Hi. right. apply (Q' i tk Hi).
    + refine (conj _ (conj J (conj _ I))); [apply C; auto|].
      intros Ha. destruct (T Ha) as [Q _]. split; [exact Q|intros _; exact Eh].
  - (* throttle: the slot is emptied *)
    destruct T as (_ & L & _).
    eapply sim_uncompleted; [reflexivity|reflexivity|]. cbn [tstep on_unsub fst].
    refine (conj _ (conj J (conj _ _))); [apply C; auto|repeat split; auto; discriminate|].
    apply (items_mono I); auto. discriminate.
Qed.

Lemma src_items_log w e :
  src_items (w_log w e true) = src_items w ++ match e with Next v => [v] | _ => [] end.
Proof. unfold src_items. cbn [w_log w_src]. rewrite flat_map_app. cbn. rewrite app_nil_r. reflexivity. Qed.

Lemma src_items_term w e b : is_term e = true -> src_items (w_term (w_log w e true) b) = src_items w.
Proof.
  intros He. change (src_items (w_log w e true) = src_items w). rewrite src_items_log.
  destruct e; [discriminate He|apply app_nil_r..].
Qed.

Definition fire_out (s : tsys) : list tout :=
  match trailing s with Some v => if alive s then [TOut (now s) (Next v)] else [] | None => [] end.

Lemma flush_eq s :
  match trailing s with Some v => slot_next (upd_trailing s None) v | None => (s, []) end = (upd_trailing s None, fire_out s).
Proof.
  unfold fire_out. destruct (trailing s) eqn:E; [reflexivity|]. destruct s; cbn in E; subst; reflexivity.
Qed.

Lemma walk_fire ls s w acc : Conn s w -> (alive s = true -> w_unsub w = false) ->
  walk (collect_step ls) (w, acc) (fire_out s) = Some (w, fire (alive s) (trailing s) acc).
Proof. intros C Hu. unfold fire_out, fire. destruct (trailing s); [apply walk_item; assumption|reflexivity]. Qed.

Lemma completed_out_fire s : completed_out (fire_out s) = false.
Proof. unfold fire_out. destruct (trailing s); [destruct (alive s)|]; reflexivity. Qed.

(* next(): debounce stashes the item and restarts the window; throttle opens a window (delivers,
   or stashes on the trailing edge alone) or is inside one (stashes, or drops on the leading edge alone) *)
Lemma deb_next d s v :
  exists ts, length ts = length (tasks s) /\ (others_quiet s -> all_quiet ts) /\
    on_src (TDebounce d) s (Next v) =
    (upd_handler (fst (schedule (upd_tasks (upd_trailing s (Some v)) ts) BOnce JTrailing (Some d))) (Some (length ts)), []).
Proof.
  pose proof (cancel_current_quiet (upd_trailing s (Some v))) as Q.
  cbn [on_src]. cbn [handler upd_trailing] in *. destruct (handler s) as [h|].
  - exists (tasks (cancel_task (upd_trailing s (Some v)) h)). split; [|split; [exact Q|]].
    + unfold cancel_task. cbn [tasks upd_trailing]. destruct (nth_error (tasks s) h); [apply set_nth_length|reflexivity].
    + rewrite (cancel_task_upd (upd_trailing s (Some v)) h) at 1. reflexivity.
  - exists (tasks s). auto.
Qed.

(* `s1`: the state that `on_src` sees *)
Definition src_goal (o : top) (ls : list tlab) (c : bool) (s : tsys) (w : wstate) (acc : list val) (e : ev) : Prop :=
  let s1 := if is_term e then upd_src s false true else s in
  RR o c s w acc -> src_done s = false -> w_unsub w = false -> Conn s1 (w_log w e true) ->
  exists wa', walk (collect_step ls) (w_log w e true, acc) (snd (on_src o s1 e)) = Some wa' /\
              RR o (c || completed_out (snd (on_src o s1 e))) (fst (on_src o s1 e)) (fst wa') (snd wa').

Lemma next_not_done o s v : rate_op o -> completed_out (snd (on_src o s (Next v))) = false.
Proof.
  intros Ho. destruct o; try contradiction; [destruct (deb_next d s v) as (ts & _ & _ & ->); reflexivity|].
  unfold on_src, slot_next.
  destruct (match handler s with Some h => task_finished s h | None => true end), e, (alive s); reflexivity.
Qed.

Lemma src_next_sim o ls c s w acc v : src_goal o ls c s w acc (Next v).
Proof.
  unfold src_goal. cbn [is_term]. intros HR Hd Hu C. rewrite next_not_done, Bool.orb_false_r by apply (rr_rate_op _ _ _ _ _ HR).
  destruct HR as (_ & J & T & I).
  assert (J' : Forall (fun j => j = JTrailing) (jobs s ++ [JTrailing])) by (apply Forall_app; auto).
  pose proof (items_stash v I Hd) as Istash.
  pose proof (fun acc' => items_pass acc' v I Hd) as Ipass.
  rewrite <- (src_items_log w (Next v)) in Istash, Ipass.
  destruct o as [| | | |d|d e| | | | | |]; try contradiction; cbn [Tasks] in T.
  - destruct (deb_next d s v) as (ts & _ & Q' & ->).
    eexists. split; [reflexivity|]. cbn [fst snd].
    refine (conj C (conj J' (conj _ Istash))).
    intros Ha. destruct (T Ha) as [Q _]. split; [exact (others_quiet_new ts _ (Q' Q))|]. intros H. cbn in H. congruence.
  - destruct T as (V & L & U). cbn [on_src]. fold (no_window s).
    assert (Hnew : forall s2,
              no_window (upd_handler (fst (schedule s2 BOnce JTrailing (Some d))) (Some (length (tasks s2)))) = false).
    { intros s2. unfold no_window, task_finished. cbn [schedule fst upd_handler handler tasks].
      rewrite nth_error_app_last. reflexivity. }
    assert (T' : forall s', (alive s' = true -> no_window s' = false) -> (e = ELeading -> trailing s' = None) ->
                   Tasks (TThrottle d e) s' (w_unsub (w_log w (Next v) true))).
    { intros s' H1 H2. split; [|split; [exact H2|intros H; cbn in H; congruence]].
      intros Ha Hc. rewrite (H1 Ha) in Hc. discriminate Hc. }
    destruct (no_window s) eqn:Ec.
    + (* no window is open: nothing is pending *)
      destruct e; cbn [slot_next schedule fst snd].
      * (* leading: delivered; never pending (L) *)
        rewrite (walk_item ls s _ acc v C) by auto. eexists. split; [reflexivity|].
        refine (conj C (conj J' (conj _ _))); [apply T'; [intros _; apply (Hnew s)|exact L]|apply Ipass; auto].
      * (* trailing: pending *)
        eexists. split; [reflexivity|].
        refine (conj C (conj J' (conj _ Istash))). apply T'; [intros _; apply (Hnew (upd_trailing s (Some v)))|discriminate].
      * (* both: delivered, not pending as well *)
        rewrite (walk_item ls s _ acc v C) by auto. eexists. split; [reflexivity|].
        refine (conj C (conj J' (conj _ _))); [apply T'; [intros _; apply (Hnew s)|discriminate]|apply Ipass; auto].
    + (* inside a window: pending, or dropped on the leading edge alone *)
      eexists. split; [reflexivity|]. cbn [fst snd].
      destruct e; (refine (conj C (conj J (conj _ _))); [apply T'; auto; discriminate|]);
        [apply Ipass; auto|exact Istash|exact Istash].
Qed.

(* complete(): the pending item, then the completion *)
Definition done_out (s : tsys) : list tout := fire_out s ++ if alive s then [TOut (now s) Done] else [].

Lemma cancel_handler_upd s :
  exists ts, match handler s with Some h => cancel_task s h | None => s end = upd_tasks s ts.
Proof.
  destruct (handler s) as [h|]; [exists (tasks (cancel_task s h)); apply cancel_task_upd|].
  exists (tasks s). destruct s; reflexivity.
Qed.

Lemma rate_done o s : rate_op o ->
  exists ts, on_src o s Done = (upd_alive (upd_tasks (upd_trailing s None) ts) false, done_out s).
Proof.
  intros Ho. destruct o; try contradiction; cbn [on_src]; rewrite flush_eq.
  - exists (tasks s). rewrite slot_term_eq. reflexivity.
  - destruct (cancel_handler_upd (upd_trailing s None)) as [ts ->]. exists ts. rewrite slot_term_eq. reflexivity.
Qed.

Lemma src_done_sim o ls c s w acc : src_goal o ls c s w acc Done.
Proof.
  unfold src_goal. cbn [is_term]. set (s1 := upd_src s false true). intros HR Hd Hu C. pose proof HR as (C0 & J & T & I).
  destruct (rate_done o s1 (rr_rate_op _ _ _ _ _ HR)) as [ts ->]. cbn [fst snd]. unfold done_out.
  rewrite walk_app, (walk_fire ls _ _ acc C) by auto.
  destruct (walk_term_eq ls s1 _ (fire (alive s1) (trailing s1) acc) Done eq_refl C) as [-> C']; [auto|].
  eexists. split; [reflexivity|]. cbn [fst snd]. refine (conj C' (conj J (conj _ _))).
  - destruct o; try contradiction; cbn [Tasks]; repeat split; auto; discriminate.
  - replace (completed_out _) with (alive s1).
    2:{ rewrite completed_out_app, completed_out_fire. destruct (alive s1); reflexivity. }
    rewrite src_items_term by reflexivity.
    refine (items_complete _ Hd). apply items_fire; [exact I|apply C0].
Qed.

(* an error: forwarded at once, the pending item is dropped *)
Lemma rate_err o s x : rate_op o ->
  exists ts, on_src o s (Err x) = (upd_tasks (upd_alive s false) ts, if alive s then [TOut (now s) (Err x)] else []).
Proof.
  intros Ho. destruct o; try contradiction; cbn [on_src]; rewrite slot_term_eq.
  - exists (tasks s). reflexivity.
  - destruct (cancel_handler_upd (upd_alive s false)) as [ts ->]. exists ts. reflexivity.
Qed.

Lemma src_err_sim o ls c s w acc x : src_goal o ls c s w acc (Err x).
Proof.
  unfold src_goal. cbn [is_term]. set (s1 := upd_src s false true). intros HR Hd Hu C. pose proof HR as (C0 & J & T & I).
  destruct (rate_err o s1 x (rr_rate_op _ _ _ _ _ HR)) as [ts ->]. cbn [fst snd].
  replace (completed_out _) with false by (destruct (alive s1); reflexivity). rewrite Bool.orb_false_r.
  destruct (walk_term_eq ls s1 _ acc (Err x) eq_refl C) as [-> C']; [auto|].
  eexists. split; [reflexivity|]. cbn [fst snd]. refine (conj C' (conj J (conj _ _))).
  - destruct o; try contradiction; cbn [Tasks]; repeat split; auto; try discriminate. apply T.
  - rewrite src_items_term by reflexivity.
    apply (items_mono I); auto; try discriminate. intros H. cbn. rewrite H. reflexivity.
Qed.

Lemma sim_src o ls c s w acc e : RR o c s w acc -> sim_goal o ls c s w acc (LSrc e).
Proof.
  intros HR. pose proof HR as (C & J & T & I). unfold sim_goal.
  destruct (src_cases o s w e C) as [(on' & done' & -> & Hd & -> & C')|(Hd & Hu & E & -> & C')].
  - eexists. split; [reflexivity|]. cbn [fst snd completed_out existsb]. rewrite Bool.orb_false_r.
    refine (conj C' (conj J (conj _ _))); [exact T|]. apply (items_mono I); auto.
  - rewrite E. destruct e; [apply src_next_sim|apply src_err_sim|apply src_done_sim]; assumption.
Qed.

Lemma run_trailing o s t tk :
  nth_error (tasks s) t = Some tk -> nth_error (jobs s) t = Some JTrailing ->
  exists tkF,
    tstep o s (LRun t) =
    match snd (poll (now s) tk) with
    | PNone => (upd_tasks s (set_nth (tasks s) t tkF), [])
    | PRun _ _ _ => (upd_tasks (upd_trailing s None) (set_nth (tasks s) t tkF), fire_out s)
    end /\
    ((forall j seq, snd (poll (now s) tk) <> PRun j seq true) -> tkF = fst (poll (now s) tk)).
Proof.
  intros Et Ej. cbn [tstep]. rewrite Et, Ej. destruct (poll (now s) tk) as [tk1 res]. cbn [fst snd].
  destruct res as [|jn seq rep]; [exists tk1; auto|].
  set (s1 := upd_tasks s (set_nth (tasks s) t tk1)).
  assert (E : on_job o s1 t JTrailing seq = (upd_trailing s1 None, fire_out s1, false)).
  { unfold fire_out, on_job, slot_next. destruct (trailing s1) eqn:E; [reflexivity|].
    rewrite <- E. destruct s; reflexivity. }
  rewrite E. destruct rep; [|exists tk1; auto].
  cbn [tasks s1 upd_trailing upd_tasks]. rewrite (nth_error_set_nth_eq _ _ _ _ Et), set_nth_idem.
  eexists. split; [reflexivity|]. intros H. destruct (H jn seq eq_refl).
Qed.

Lemma sim_run o ls c s w acc t : RR o c s w acc -> sim_goal o ls c s w acc (LRun t).
Proof.
  intros HR. pose proof HR as (C & J & T & I).
  destruct (nth_error (tasks s) t) as [tk|] eqn:Et; [destruct (nth_error (jobs s) t) as [j|] eqn:Ej|].
  2,3: eapply sim_uncompleted; cbn [tstep]; rewrite Et, ?Ej; try reflexivity; exact HR.
  assert (Hj : j = JTrailing).
  { apply nth_error_In in Ej. apply (proj1 (Forall_forall _ _) J j Ej). }
  subst j. destruct (run_trailing o s t tk Et Ej) as (tkF & E & EF).
  destruct (snd (poll (now s) tk)) eqn:Ep.
  - (* bookkeeping only *)
    eapply sim_uncompleted; rewrite E; try reflexivity. cbn [fst]. rewrite EF by discriminate.
    refine (conj C (conj J (conj _ I))).
    destruct o; try contradiction; cbn [Tasks] in *.
    + intros Ha. destruct (T Ha) as [Q U]. split; [|exact U]. apply (others_quiet_set s t tk _ Q Et), poll_status.
    + destruct T as (V & L & U). split; [|split; assumption]. intros Ha Hc. apply V; [exact Ha|].
      rewrite <- Hc. symmetry. apply (no_window_set s t tk _ Et).
      pose proof (SchedLaws.poll_cases (now s) tk) as P. destruct (poll (now s) tk) as [tk1 res].
      cbn [fst snd] in *. subst res. apply P.
  - (* the window task ran *)
    assert (Hnq : ~ status_quiet tk).
    { intros Hq. destruct (poll_quiet (now s) tk Hq) as [Hn _]. congruence. }
    assert (Hu : alive s = true -> w_unsub (w_label w (Some (LRun t))) = false).
    { intros Ha. cbn. destruct (w_unsub w) eqn:Eu; [|reflexivity].
      destruct o; try contradiction; cbn [Tasks] in T.
      - destruct (T Ha) as [Q U]. destruct (Q t tk Et) as [H|H]; [rewrite (U eq_refl) in H; discriminate H|contradiction].
      - destruct T as (_ & _ & U). rewrite (U eq_refl) in Ha. discriminate Ha. }
    eapply sim_uncompleted; rewrite E; cbn [fst snd];
      [apply (walk_fire ls s (w_label w (Some (LRun t))) acc C Hu)|apply completed_out_fire|].
    refine (conj C (conj J (conj _ _))); [|apply items_fire; [exact I|apply C]].
    destruct o; try contradiction; cbn [Tasks] in *.
    + intros Ha. destruct (T Ha) as [Q U]. split; [|exact U]. apply (others_quiet_set s t tk tkF Q Et). contradiction.
    + destruct T as (V & L & U). repeat split; auto.
Qed.

Lemma rate_step_sim o ls_full done l r pre s (wa : wstate * list val) :
  ls_full = done ++ l :: r -> RR o (completed_out pre) s (fst wa) (snd wa) ->
  exists wa', walk (collect_step ls_full) wa (TMark (length done) :: snd (tstep o s l)) = Some wa' /\
              RR o (completed_out (pre ++ TMark (length done) :: snd (tstep o s l))) (fst (tstep o s l)) (fst wa') (snd wa').
Proof.
  destruct wa as [w acc]. intros E HR. rewrite (collect_mark _ _ _ _ _ _ _ E), completed_out_app.
  change (sim_goal o ls_full (completed_out pre) s w acc l).
  destruct l; [apply sim_src|apply sim_run|apply sim_idle; [exact I|]|apply sim_unsub|apply sim_idle; [exact I|]..]; exact HR.
Qed.

Lemma rate_init o : rate_op o -> RR o false (tinit o) (w0 true) [].
Proof.
  intros Ho. destruct o as [| | | |d|d e| | | | | |]; try contradiction;
    (split; [apply conn_init; reflexivity|]; split; [constructor|]; split; [|repeat split; discriminate]).
  - intros _. split; [|discriminate]. intros [|i] tk Hi; discriminate Hi.
  - repeat split; auto; discriminate.
Qed.

Lemma rate_run o ls :
  rate_op o ->
  exists w items s',
    walk (collect_step ls) (w0 true, []) (run_timed o ls) = Some (w, items) /\
    RR o (completed_out (run_timed o ls)) s' w items.
Proof.
  intros Ho.
  destruct (run_sim_trace collect_step o (fun pre s wa => RR o (completed_out pre) s (fst wa) (snd wa))
              (rate_step_sim o) ls [] [] (tinit o) (w0 true, []) ls eq_refl (rate_init o Ho)) as ([w items] & s' & H).
  exists w, items, s'. exact H.
Qed.

Lemma rate_subseq o ls : rate_op o -> subseq_ok ls (run_timed o ls) = true.
Proof.
  intros Ho. destruct (rate_run o ls Ho) as (w & items & s' & Hw & _ & _ & _ & I).
  unfold subseq_ok. rewrite Hw. apply I.
Qed.

Lemma rate_final_item o ls : rate_op o -> has_final o = true -> final_item_ok ls (run_timed o ls) = true.
Proof.
  intros Ho Hf. destruct (rate_run o ls Ho) as (w & items & s' & Hw & _ & _ & _ & I).
  unfold final_item_ok. rewrite Hw. destruct (completed_out (run_timed o ls)); [|reflexivity].
  destruct I as (_ & _ & _ & I4). destruct (I4 eq_refl) as (_ & _ & Hl). apply (Hl Hf).
Qed.

Theorem debounce_subseq : forall d ls, subseq_ok ls (run_timed (TDebounce d) ls) = true.
Proof. intros d ls. apply rate_subseq. exact I. Qed.

Theorem debounce_final_item : forall d ls, final_item_ok ls (run_timed (TDebounce d) ls) = true.
Proof. intros d ls. apply rate_final_item; [exact I|reflexivity]. Qed.

Theorem debounce_meets_spec : forall d ls, timed_ok (TDebounce d) ls (run_timed (TDebounce d) ls) = true.
Proof. intros d ls. cbn [timed_ok]. rewrite debounce_subseq, debounce_final_item. reflexivity. Qed.

Theorem throttle_subseq : forall d e ls, subseq_ok ls (run_timed (TThrottle d e) ls) = true.
Proof. intros d e ls. apply rate_subseq. exact I. Qed.

Theorem throttle_final_item :
  forall d e ls, e <> ELeading -> final_item_ok ls (run_timed (TThrottle d e) ls) = true.
Proof.
  intros d e ls He. apply rate_final_item; [exact I|]. destruct e; [congruence|reflexivity|reflexivity].
Qed.

Theorem throttle_meets_spec : forall d e ls, timed_ok (TThrottle d e) ls (run_timed (TThrottle d e) ls) = true.
Proof.
  intros d e ls. cbn [timed_ok]. rewrite throttle_subseq. cbn [andb].
  destruct e; [reflexivity| |]; apply throttle_final_item; discriminate.
Qed.

(* the leading-edge throttle does not flush: an item that arrives inside a window is dropped *)
Example throttle_leading_no_final_item :
  final_item_ok [LSrc (Next (VZ 1)); LSrc (Next (VZ 2)); LSrc Done]
    (run_timed (TThrottle 2 ELeading) [LSrc (Next (VZ 1)); LSrc (Next (VZ 2)); LSrc Done]) = false.
Proof. vm_compute. reflexivity. Qed.

Definition Attached (s : tsys) (k : nat) : Prop :=
  length (tasks s) = k /\ length (jobs s) = k /\ alive s = true /\ src_on s = true /\ src_done s = false.

(* window task k: as scheduled, once its first poll has armed the timer, after it ran *)
Definition tk_new (d : N) (k : nat) : task := spawn (BOnce k) (Some d).
Definition tk_wait (d : N) (k : nat) (due : N) : task := with_stage (tk_new d k) (StWait due).
Definition tk_done (d : N) (k : nat) : task := finished_ok (with_stage (tk_new d k) StBody).

Definition Win (s : tsys) (k : nat) (tk : task) : Prop :=
  nth_error (tasks s) k = Some tk /\ nth_error (jobs s) k = Some JTrailing /\ Attached s (S k).

Lemma win_set s k tk tk' : Win s k tk -> Win (upd_tasks s (set_nth (tasks s) k tk')) k tk'.
Proof.
  intros (Ht & Hj & Hl & I). split; [apply (nth_error_set_nth_eq _ _ _ _ Ht)|]. split; [exact Hj|].
  split; [|exact I]. cbn [tasks upd_tasks]. rewrite set_nth_length. exact Hl.
Qed.

Lemma win_sched d s k h : Attached s k -> Win (upd_handler (fst (schedule s BOnce JTrailing (Some d))) h) k (tk_new d k).
Proof.
  intros (Ht & Hj & I). subst k. unfold Win, Attached. cbn [schedule fst upd_handler tasks jobs alive src_on src_done].
  rewrite nth_error_app_last, <- Hj, nth_error_app_last, !app_length, Hj. cbn [length]. repeat split; try apply I; lia.
Qed.

(* the first poll arms the timer (the window starts then); the poll when it is due runs the task *)
Lemma win_arm o d s k : 0 < d -> Win s k (tk_new d k) ->
  tstep o s (LRun k) = (upd_tasks s (set_nth (tasks s) k (tk_wait d k (now s + d))), []).
Proof.
  intros Hd (Ht & Hj & _). destruct (run_trailing o s k _ Ht Hj) as (tkF & E & EF).
  assert (P : poll (now s) (tk_new d k) = (tk_wait d k (now s + d), PNone)).
  { unfold poll. cbn [tk_new spawn t_stage t_keep negb]. destruct (N.ltb_spec (now s) (now s + d)); [reflexivity|lia]. }
  rewrite P in E, EF. rewrite E, EF by discriminate. reflexivity.
Qed.

Lemma win_fire o d s k : Win s k (tk_wait d k (now s)) ->
  tstep o s (LRun k) = (upd_tasks (upd_trailing s None) (set_nth (tasks s) k (tk_done d k)), fire_out s).
Proof.
  intros (Ht & Hj & _). destruct (run_trailing o s k _ Ht Hj) as (tkF & E & EF).
  assert (P : poll (now s) (tk_wait d k (now s)) = (tk_done d k, PRun k 0 false)).
  { unfold poll. cbn [tk_wait tk_new with_stage spawn t_stage t_keep negb]. rewrite N.ltb_irrefl. reflexivity. }
  rewrite P in E, EF. rewrite E, EF by discriminate. reflexivity.
Qed.

Definition Ready (d : N) (s : tsys) (k : nat) (v : val) (t : N) : Prop :=
  Win s k (tk_new d k) /\ trailing s = Some v /\ now s = t.

Lemma deb_item d s k v : Attached s k ->
  routs (TDebounce d) s [LSrc (Next v)] = [] /\ Ready d (tfinal (TDebounce d) s [LSrc (Next v)]) k v (now s).
Proof.
  intros I. pose proof I as (Ht & Hj & Ha & Hon & Hd). cbn [routs tfinal tstep]. rewrite Hd, Hon. cbn [is_term].
  destruct (deb_next d s v) as (ts & Hl & _ & ->). split; [reflexivity|]. cbn [fst].
  rewrite Ht in Hl. rewrite Hl. split; [|split; reflexivity]. apply win_sched. exact (conj Hl (proj2 I)).
Qed.

Lemma deb_round d s k v t : 0 < d -> Ready d s k v t ->
  routs (TDebounce d) s [LRun k; LAdv d; LRun k] = [TOut (t + d) (Next v)] /\
  Attached (tfinal (TDebounce d) s [LRun k; LAdv d; LRun k]) (S k) /\
  now (tfinal (TDebounce d) s [LRun k; LAdv d; LRun k]) = t + d.
Proof.
  intros Hd (W & Htr & <-). pose proof W as (_ & _ & _ & _ & Ha & _).
  pose proof (win_arm (TDebounce d) d s k Hd W) as E1. pose proof (win_set _ _ _ (tk_wait d k (now s + d)) W) as W1.
  pose proof (win_fire (TDebounce d) d
                (upd_now (upd_tasks s (set_nth (tasks s) k (tk_wait d k (now s + d)))) (now s + d)) k W1) as E3.
  edestruct step_cons as [-> ->]; [exact E1|]. edestruct step_cons as [-> ->]; [reflexivity|].
  edestruct step_cons as [-> ->]; [exact E3|].
  split; [unfold fire_out; cbn [trailing alive now upd_now upd_tasks]; rewrite Htr, Ha; reflexivity|].
  split; [apply (win_set _ _ _ (tk_done d k) W1)|reflexivity].
Qed.

(* of a burst only the last item is pending *)
Lemma deb_burst d : forall vs v k s, Attached s k ->
  routs (TDebounce d) s (map (fun x => LSrc (Next x)) (vs ++ [v])) = [] /\
  Ready d (tfinal (TDebounce d) s (map (fun x => LSrc (Next x)) (vs ++ [v]))) (length vs + k) v (now s).
Proof.
  induction vs as [|a vs IH]; intros v k s HI; cbn [app map length].
  - apply deb_item, HI.
  - change (LSrc (Next a) :: ?r) with ([LSrc (Next a)] ++ r). rewrite routs_app, tfinal_app.
    destruct (deb_item d s k a HI) as [-> ((_ & _ & HI1) & _ & Hn)].
    rewrite Nat.add_succ_comm, <- Hn. apply IH, HI1.
Qed.

(* each burst followed by the two polls of its last window task *)
Fixpoint bursts (d : N) (k : nat) (bs : list (list val * val)) : list tlab :=
  match bs with
  | [] => []
  | (vs, v) :: r =>
      map (fun x => LSrc (Next x)) (vs ++ [v]) ++ [LRun (length vs + k); LAdv d; LRun (length vs + k)] ++
      bursts d (S (length vs + k)) r
  end.

Fixpoint burst_deliveries (d : N) (t : N) (bs : list (list val * val)) : list tout :=
  match bs with
  | [] => []
  | (_, v) :: r => TOut (t + d) (Next v) :: burst_deliveries d (t + d) r
  end.

Lemma deb_bursts d :
  0 < d -> forall bs k s, Attached s k -> routs (TDebounce d) s (bursts d k bs) = burst_deliveries d (now s) bs.
Proof.
  intros Hd bs. induction bs as [|[vs v] bs IH]; intros k s HI; [reflexivity|].
  cbn [bursts burst_deliveries]. rewrite !routs_app. destruct (deb_burst d vs v k s HI) as [-> R].
  destruct (deb_round d _ _ v _ Hd R) as (-> & HI' & Hn). rewrite (IH _ _ HI'), Hn. reflexivity.
Qed.

Theorem debounce_bursts d bs : 0 < d ->
  touts (run_timed (TDebounce d) (bursts d 0 bs)) = burst_deliveries d 0 bs.
Proof. intros Hd. unfold run_timed. rewrite touts_run. apply (deb_bursts d Hd bs). repeat split. Qed.

(* items one window apart are bursts of one *)
Lemma spaced_bursts d : forall vs k,
  flat_map (fun '(i, v) => [LSrc (Next v); LRun i; LAdv d; LRun i]) (combine (seq k (length vs)) vs) =
  bursts d k (map (fun v => ([], v)) vs).
Proof.
  induction vs as [|v vs IH]; intros k; [reflexivity|].
  cbn [length seq combine flat_map map bursts app]. rewrite IH. reflexivity.
Qed.

Lemma spaced_deliveries d t : forall vs k,
  burst_deliveries d (t + N.of_nat k * d) (map (fun v => ([], v)) vs) =
  map (fun '(i, v) => TOut (t + N.of_nat (S i) * d) (Next v)) (combine (seq k (length vs)) vs).
Proof.
  induction vs as [|v vs IH]; intros k; [reflexivity|].
  cbn [length seq combine map burst_deliveries].
  assert (E : t + N.of_nat k * d + d = t + N.of_nat (S k) * d) by (rewrite Nat2N.inj_succ; lia).
  rewrite E. f_equal. apply IH.
Qed.

(* C09 exactness, spaced items: every item is delivered, item i at time (i+1)*d *)
Theorem debounce_spaced : forall d vs, 0 < d ->
  touts (run_timed (TDebounce d)
           (flat_map (fun '(i, v) => [LSrc (Next v); LRun i; LAdv d; LRun i]) (combine (seq 0 (length vs)) vs))) =
  map (fun '(i, v) => TOut (N.of_nat (S i) * d) (Next v)) (combine (seq 0 (length vs)) vs).
Proof.
  intros d vs Hd. rewrite spaced_bursts, (debounce_bursts d _ Hd). apply (spaced_deliveries d 0 vs 0%nat).
Qed.

(* the window timer starts at the task's first poll: polling only once, after the window,
   delivers nothing (the statement with [LSrc (Next v); LAdv d; LRun i] per item is false) *)
Example debounce_single_late_poll_delivers_nothing :
  touts (run_timed (TDebounce 3)
           (flat_map (fun '(i, v) => [LSrc (Next v); LAdv 3; LRun i]) (combine (seq 0 2) [VZ 10; VZ 11]))) = [].
Proof. vm_compute. reflexivity. Qed.

(* C09 exactness, burst: items with no clock advance between them; once the window after the
   last one has elapsed only the last item is delivered *)
Theorem debounce_burst : forall d vs v, 0 < d ->
  touts (run_timed (TDebounce d)
           (map (fun x => LSrc (Next x)) (vs ++ [v]) ++ [LRun (length vs); LAdv d; LRun (length vs)])) =
  [TOut d (Next v)].
Proof.
  intros d vs v Hd. pose proof (debounce_bursts d [(vs, v)] Hd) as H.
  cbn [bursts burst_deliveries] in H. rewrite Nat.add_0_r, app_nil_r in H. exact H.
Qed.

Print Assumptions debounce_subseq.
Print Assumptions debounce_final_item.
Print Assumptions debounce_meets_spec.
Print Assumptions throttle_subseq.
Print Assumptions throttle_final_item.
Print Assumptions throttle_meets_spec.
Print Assumptions debounce_spaced.
Print Assumptions debounce_burst.
