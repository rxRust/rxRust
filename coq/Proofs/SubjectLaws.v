(* The subject implementation refines the abstract multicast set, for every history. *)
From RxSpec Require Import SubjectSpec.

Local Open Scope nat_scope.
Local Arguments memn : simpl never.

Definition is_none {A} (o : option A) : bool := match o with None => true | Some _ => false end.

Definition absf (s : subj) : asub :=
  {| live := match observers s, chamber s with
             | Some o, Some c => filter (slot_alive s) (o ++ c)
             | _, _ => []
             end;
     closed := is_none (observers s);
     torn := is_none (chamber s);
     gone := dead s;
     fresh := next_id s |}.

Definition ids_below (n : nat) (l : list nat) : Prop := forall i, In i l -> i < n.

Definition opt_below (n : nat) (o : option (list nat)) : Prop :=
  match o with Some l => ids_below n l | None => True end.

Record WF (s : subj) : Prop := {
  wf_torn : chamber s = None -> observers s = None;
  wf_obs_below : opt_below (next_id s) (observers s);
  wf_cha_below : opt_below (next_id s) (chamber s);
  wf_dead_below : ids_below (next_id s) (dead s)
}.

Lemma WF0 : WF subj0.
Proof. split; cbn; try discriminate; try (intros i []). Qed.

Lemma memn_app i a b : memn i (a ++ b) = memn i a || memn i b.
Proof. apply existsb_app. Qed.

Lemma memn_false_below n l i : ids_below n l -> n <= i -> memn i l = false.
Proof.
  intros H Hi. unfold memn. apply Bool.not_true_is_false. intros E.
  apply existsb_exists in E. destruct E as (x & Hx & Ex). apply Nat.eqb_eq in Ex. subst x.
  specialize (H _ Hx). lia.
Qed.

Lemma memn_filter i f l : memn i (filter f l) = memn i l && f i.
Proof.
  unfold memn. induction l as [|x l IH]; [reflexivity|]. cbn [filter existsb].
  destruct (f x) eqn:E; cbn [existsb]; rewrite IH; destruct (Nat.eqb_spec i x) as [->|]; cbn;
    rewrite ?E, ?Bool.andb_false_r; reflexivity.
Qed.

Lemma ids_below_nil n : ids_below n [].
Proof. intros i []. Qed.

Lemma ids_below_cons n i l : i < n -> ids_below n l -> ids_below n (i :: l).
Proof. intros Hi H j [<-|Hj]; auto. Qed.

Lemma ids_below_app n a b : ids_below n a -> ids_below n b -> ids_below n (a ++ b).
Proof. intros Ha Hb i Hi. apply in_app_or in Hi. destruct Hi; auto. Qed.

Lemma ids_below_S n l : ids_below n l -> ids_below (S n) l.
Proof. intros H i Hi. specialize (H i Hi). lia. Qed.

Lemma ids_below_filter n f l : ids_below n l -> ids_below n (filter f l).
Proof. intros H i Hi. apply filter_In in Hi. apply H, Hi. Qed.

Local Hint Resolve ids_below_nil ids_below_cons ids_below_app ids_below_S ids_below_filter : below.

Lemma filter_ext_in' (f g : nat -> bool) l : (forall i, In i l -> f i = g i) -> filter f l = filter g l.
Proof. apply filter_ext_in. Qed.

Lemma filter_filter' {A} (f g : A -> bool) l : filter f (filter g l) = filter (fun x => g x && f x) l.
Proof. induction l as [|x l IH]; [reflexivity|]. cbn. destruct (g x); cbn; [destruct (f x)|]; rewrite ?IH; reflexivity. Qed.

Lemma flat_map_filter {A B} (f : A -> bool) (g : A -> list B) l :
  flat_map g (filter f l) = flat_map (fun j => if f j then g j else []) l.
Proof. induction l as [|x l IH]; [reflexivity|]. cbn. destruct (f x); cbn; rewrite IH; reflexivity. Qed.

Lemma slot_alive_load s i : slot_alive (load s) i = slot_alive s i.
Proof. unfold load, slot_alive. destruct (observers s); destruct (chamber s); reflexivity. Qed.

Lemma subscribe_id s : snd (subscribe s) = next_id s.
Proof. unfold subscribe. destruct (chamber s); reflexivity. Qed.

Definition refines s op :=
  WF (fst (sstep s op)) /\ astep (absf s) op = (absf (fst (sstep s op)), snd (sstep s op)).

(* A well-formed state has one of three shapes: open (both cells), terminated (the chamber only),
   unsubscribed (neither).  On each of them `load`, `subscribe`, `absf` and the steps compute. *)
Ltac shapes s W :=
  destruct s as [[o|] [c|] d n]; destruct W as [H1 H2 H3 H4]; cbn in H1, H2, H3, H4;
  try discriminate (H1 eq_refl).

Lemma ref_subscribe s : WF s -> refines s OpSubscribe.
Proof.
  intros W. shapes s W; (split; [split; cbn; auto with below; discriminate|]); try reflexivity.
  unfold absf, slot_alive; cbn. rewrite app_assoc, !filter_app. cbn [filter].
  rewrite (memn_false_below n d) by auto. reflexivity.
Qed.

Lemma ref_unsub_one s i : WF s -> refines s (OpUnsubOne i).
Proof.
  intros W. unfold refines. cbn [sstep astep fresh absf].
  destruct (Nat.ltb_spec i (next_id s)) as [Hlt|Hge]; cbn [negb fst snd]; [|split; [exact W|reflexivity]].
  shapes s W; (split; [split; cbn; auto with below|]); try reflexivity.
  unfold absf, slot_alive, remove; cbn. rewrite filter_filter'. do 2 f_equal. apply filter_ext. intros j.
  change (memn j (i :: d)) with (Nat.eqb j i || memn j d). rewrite Bool.negb_orb. apply Bool.andb_comm.
Qed.

Lemma ref_next s v : WF s -> refines s (OpNext v).
Proof.
  intros W. shapes s W; (split; [split; cbn; auto with below; discriminate|]); try reflexivity.
  unfold absf; cbn. rewrite app_nil_r. reflexivity.
Qed.

Lemma ref_next_sub_inside s v i : WF s -> refines s (OpNextSubInside v i).
Proof.
  intros W. shapes s W; [|split; [split; cbn; auto with below; discriminate|reflexivity]..].
  unfold refines, absf. cbn. rewrite memn_filter.
  destruct (memn i (o ++ c) && _); cbn.
  - split; [split; cbn; auto 6 with below; discriminate|].
    unfold slot_alive; cbn [dead]. rewrite flat_map_filter, (filter_app _ (o ++ c)). cbn [filter].
    rewrite (memn_false_below n d) by auto. reflexivity.
  - split; [split; cbn; auto with below; discriminate|]. rewrite app_nil_r. reflexivity.
Qed.

(* error and complete are one clause of the macro body, up to the event delivered *)
Definition term_step (s1 : subj) (t : ev) : subj * list sobs :=
  match observers s1 with
  | Some o =>
      let targets := filter (slot_alive s1) o in
      ({| observers := None; chamber := chamber s1; dead := targets ++ dead s1; next_id := next_id s1 |},
       map (fun i => Deliver i t) targets)
  | None => (s1, [])
  end.

Definition aterm_step (a : asub) (t : ev) : asub * list sobs :=
  if closed a then (a, [])
  else ({| live := []; closed := true; torn := torn a; gone := live a ++ gone a; fresh := fresh a |},
        map (fun i => Deliver i t) (live a)).

Lemma ref_terminal s (t : ev) :
  WF s ->
  WF (fst (term_step (load s) t)) /\
  aterm_step (absf s) t = (absf (fst (term_step (load s) t)), snd (term_step (load s) t)).
Proof.
  intros W. shapes s W; (split; [split; cbn; auto with below; discriminate|reflexivity]).
Qed.

Lemma ref_retain s : WF s -> refines s OpRetain.
Proof.
  intros W. shapes s W; (split; [split; cbn; auto with below; discriminate|]); try reflexivity.
  unfold absf, slot_alive; cbn. do 2 f_equal. rewrite !filter_app, filter_filter'. f_equal.
  apply filter_ext. intros j. symmetry. apply Bool.andb_diag.
Qed.

Lemma ref_unsub_subject s : WF s -> refines s OpUnsubSubject.
Proof. intros [H1 H2 H3 H4]. split; [split; cbn; auto|reflexivity]. Qed.

Lemma load_closed s : observers s = None -> load s = s.
Proof. intros H. unfold load. rewrite H. reflexivity. Qed.

Lemma closed_stays s op : observers s = None -> observers (fst (sstep s op)) = None.
Proof.
  intros H. pose proof (load_closed s H) as L.
  destruct op; cbn [sstep]; rewrite ?L, ?H; cbn [fst]; auto.
  - unfold subscribe. destruct (chamber s); cbn; exact H.
  - destruct (Nat.ltb i (next_id s)); cbn; exact H.
Qed.

Lemma term_step_closes s1 t : observers (fst (term_step s1 t)) = None.
Proof. unfold term_step. destruct (observers s1) eqn:E; [reflexivity|exact E]. Qed.

Lemma refines_any s op cl :
  WF s -> (cl = true -> observers s = None) -> size_ok cl [op] = true -> refines s op.
Proof.
  intros W Hcl Hs. destruct op; try (split; [exact W|reflexivity]);
    (* len and is_empty agree with the abstract answers once the subject is closed *)
    try (cbn in Hs; apply andb_prop in Hs; split; [exact W|]; cbn; rewrite (Hcl (proj1 Hs)); reflexivity).
  - apply ref_subscribe, W.
  - apply ref_unsub_one, W.
  - apply ref_next, W.
  - apply ref_next_sub_inside, W.
  - exact (ref_terminal s (Err e) W).
  - exact (ref_terminal s Done W).
  - apply ref_retain, W.
  - apply ref_unsub_subject, W.
  - split; [exact W|]. cbn [sstep astep fst snd absf fresh gone]. unfold slot_alive.
    rewrite Bool.negb_involutive. reflexivity.
Qed.

(* what size_ok needs to know after one operation *)
Definition cl_after (cl : bool) (op : sop) : bool :=
  match op with OpError _ | OpComplete | OpUnsubSubject => true | _ => cl end.

Lemma size_ok_cons cl op r :
  size_ok cl (op :: r) = size_ok cl [op] && size_ok (cl_after cl op) r.
Proof. destruct op; cbn; rewrite ?Bool.andb_true_r; reflexivity. Qed.

Lemma size_ok_app_eq cl a b :
  size_ok cl (a ++ b) = size_ok cl a && size_ok (fold_left cl_after a cl) b.
Proof.
  revert cl. induction a as [|op r IH]; intros cl; [reflexivity|].
  cbn [app fold_left]. rewrite (size_ok_cons cl op (r ++ b)), (size_ok_cons cl op r), IH. apply Bool.andb_assoc.
Qed.

Lemma cl_after_sound s op cl :
  (cl = true -> observers s = None) ->
  (cl_after cl op = true -> observers (fst (sstep s op)) = None).
Proof.
  intros Hcl H. destruct op; cbn [cl_after] in H; try (apply closed_stays, Hcl, H).
  - apply (term_step_closes _ (Err e)).
  - apply (term_step_closes _ Done).
  - reflexivity.
Qed.

Theorem subject_refines_from s cl h :
  WF s -> (cl = true -> observers s = None) -> size_ok cl h = true ->
  srun s h = arun (absf s) h.
Proof.
  revert s cl. induction h as [|op r IH]; intros s cl W Hcl Hs; [reflexivity|].
  rewrite size_ok_cons in Hs. apply andb_prop in Hs. destruct Hs as [Hs1 Hs2].
  destruct (refines_any s op cl W Hcl Hs1) as [W' E].
  pose proof (cl_after_sound s op cl Hcl) as Hcl'.
  cbn [srun arun]. rewrite E. destruct (sstep s op) as [s' out]. cbn [fst snd] in *.
  f_equal. exact (IH s' _ W' Hcl' Hs2).
Qed.

Theorem subject_refines h : size_ok false h = true -> srun subj0 h = arun asub0 h.
Proof.
  intros H. change asub0 with (absf subj0).
  apply (subject_refines_from subj0 false h WF0); [discriminate|exact H].
Qed.

(* After a terminal or unsubscribe the subject is finished and empty, for ever. *)
Theorem closed_reports s :
  observers s = None ->
  snd (sstep s OpLen) = [RetN 0] /\ snd (sstep s OpIsEmpty) = [RetB true] /\
  snd (sstep s OpIsFinished) = [RetB true] /\ snd (sstep s OpIsClosed) = [RetB true] /\
  forall v, snd (sstep s (OpNext v)) = [].
Proof.
  intros H. cbn [sstep snd]. rewrite H. repeat split.
  intros v. rewrite (load_closed s H), H. reflexivity.
Qed.
