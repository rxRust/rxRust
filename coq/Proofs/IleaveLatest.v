(* Ileave.v, C12 over the thread-safe subject: "the most recent value is the one delivered last in
   the common order that all subscribers observe", and "a subscriber that joins is handed the most
   recent value first and then every later item".

   Props/C12.v refutes both clauses of the lock-level model for TWO threads (next() stores the value
   in one critical section and broadcasts it in another).  Here: where the crate does satisfy them,
   for EVERY schedule.
     il_latest_single_producer       latest_ok, when at most ONE thread's script contains
                                     BehaviorSubject::next operations -- whatever the other threads do
                                     (subscribe, unsubscribe, peek, even the plain next of the inner
                                     subject) and whatever the setup script does
     il_final_value_single_producer  the value cell at the end, under the same hypothesis (no probe,
                                     no terminal, no names needed)
     il_joiner_no_next               joiner_ok, when no thread calls next (of either kind)
     il_joiner_with_producer         joiner_ok, when the joiners are subscribed by the producer
                                     thread itself and the other threads only subscribe plainly,
                                     unsubscribe and peek
   and Examples (vm_compute) that each hypothesis is needed and satisfiable. *)
From RxProofs Require Export IleaveComplete.
Local Open Scope nat_scope.

Definition is_bnext (o : iop) : bool := match o with IBNext _ => true | _ => false end.
Definition has_bnext (ops : list iop) : bool := existsb is_bnext ops.

(* at most one thread's script contains BehaviorSubject::next operations; the setup script, which
   runs alone before the threads start, is unrestricted: the argument `setup` is not looked at *)
Definition single_producer (setup : list iop) (scripts : list (list iop)) : bool :=
  Nat.leb (length (filter has_bnext scripts)) 1.

Lemma filter_len0 {A} (f : A -> bool) l : length (filter f l) = 0 -> forall x, In x l -> f x = false.
Proof.
  induction l as [|y l IH]; cbn; [intros _ x []|]. destruct (f y) eqn:E; cbn; [discriminate|].
  intros H x [<-|Hx]; auto.
Qed.

Lemma at_most_one_ex {A} (f : A -> bool) (l : list A) :
  Nat.leb (length (filter f l)) 1 = true ->
  exists p, forall i x, nth_error l i = Some x -> i <> p -> f x = false.
Proof.
  induction l as [|x0 l IH]; cbn [filter].
  - intros _. exists 0. intros [|i] x; discriminate.
  - destruct (f x0) eqn:E.
    + cbn [length]. intros H. apply Nat.leb_le in H. exists 0. intros [|i] x Hi Hne; [congruence|].
      cbn in Hi. apply (filter_len0 f l); [lia|]. eapply nth_error_In; eauto.
    + intros H. destruct (IH H) as (p & Hp). exists (S p). intros [|i] x Hi Hne; cbn in Hi.
      * inversion Hi; subst. exact E.
      * apply (Hp i x Hi). lia.
Qed.

(* Spec's `setup_value a l` is read as the value the cell holds after the operations l when it held
   a before, for any list of operations *)
Lemma setup_value_app a l1 l2 : setup_value a (l1 ++ l2) = setup_value (setup_value a l1) l2.
Proof. apply fold_left_app. Qed.

Lemma setup_value_nob l a : (forall x, In x l -> is_bnext x = false) -> setup_value a l = a.
Proof.
  revert a. induction l as [|o l IH]; intros a H; [reflexivity|].
  change (setup_value a (o :: l)) with (setup_value (match o with IBNext v => v | _ => a end) l).
  rewrite IH by (intros x Hx; apply H; right; exact Hx).
  specialize (H o (or_introl eq_refl)). destruct o; try discriminate; reflexivity.
Qed.

Lemma setup_value_last l1 v l2 a :
  (forall x, In x l2 -> is_bnext x = false) -> setup_value a (l1 ++ IBNext v :: l2) = v.
Proof. intros H. rewrite setup_value_app. apply (setup_value_nob l2 v H). Qed.

(* what is still to be stored, applied to what is stored, does not change *)
Lemma F_val s t th s1 th1 o :
  imove s t th = (s1, th1, o) -> pc_ok th -> chamP s ->
  setup_value (s_val s1) (t_ops th1) = setup_value (s_val s) (t_ops th).
Proof.
  intros Hm Hp Hc.
  destruct (F_script _ _ _ _ _ _ Hm Hp Hc) as [(v & r & _ & -> & -> & -> & _)|[(-> & -> & _)|(-> & _ & _ & o0 & -> & Ho)]];
    try reflexivity.
  destruct o0; try reflexivity. destruct (Ho v eq_refl).
Qed.

Lemma F_val_same s t th s1 th1 o :
  imove s t th = (s1, th1, o) -> (forall v r, t_ops th <> IBNext v :: r) -> s_val s1 = s_val s.
Proof.
  intros H%imove_istep. destruct H; cbn [t_ops]; intros Hn; try reflexivity; try apply val_sub.
  destruct (Hn _ _ eq_refl).
Qed.

Section Producer.
Variable p : nat.      (* the only thread that may call BehaviorSubject::next *)
Variable F : Z.        (* the value the cell holds when that thread has returned *)

(* what thread p still has to do *)
Definition pops (ths : list ithread) : list iop :=
  match nth_error ths p with Some th => t_ops th | None => [] end.

(* the cell is on its way to F: what p still has to do, applied to what the cell holds, gives F; the
   other threads do not touch the cell *)
Definition VInv (s : ish) (ths : list ithread) : Prop :=
  setup_value (s_val s) (pops ths) = F /\ ops_all (fun i x => i <> p -> is_bnext x = false) ths.

Lemma VInv_step s ths t t' th s1 th1 o :
  pc_ok th -> chamP s -> VInv s ths -> nth_error ths t = Some th -> imove s t' th = (s1, th1, o) ->
  VInv s1 (set_th ths t th1).
Proof.
  intros Hpc Hch [HF Hno] Ht Hm. split; [|eapply ops_all_step; eauto; reflexivity].
  unfold pops in *. destruct (Nat.eq_dec t p) as [->|Hne].
  - rewrite (nth_set_th_same _ _ _ _ Ht). rewrite Ht in HF. rewrite <- HF. eapply F_val; eauto.
  - rewrite nth_set_th_other; auto. rewrite (F_val_same _ _ _ _ _ _ Hm); [exact HF|].
    intros v r E. discriminate (Hno _ _ (IBNext v) Ht); [rewrite E; left; reflexivity|exact Hne].
Qed.

Lemma VInv_finished s ths : VInv s ths -> ifinished ths = true -> s_val s = F.
Proof.
  intros [HV _] Hf. rewrite <- HV. unfold pops. destruct (nth_error ths p) as [th|] eqn:Eth; [|reflexivity].
  destruct (finished_th _ _ _ Hf Eth) as [_ ->]. reflexivity.
Qed.

End Producer.

(* the script of thread p, empty when there is no such thread *)
Definition script (scripts : list (list iop)) (p : nat) : list iop :=
  match nth_error scripts p with Some l => l | None => [] end.

Lemma val_after_setup v0 setup :
  setup_completes v0 setup = true ->
  s_val (run_alone 1000 (ish0 v0) (start_thread setup)) = setup_value v0 setup.
Proof.
  intros Hc.
  destruct (setup_inv (fun s th => setup_value (s_val s) (t_ops th) = setup_value v0 setup) v0 setup)
    as (th & Hv & Ho); [|reflexivity|rewrite (Ho Hc) in Hv; exact Hv].
  intros s th s1 th1 o Hch _ Hp <- Hm. eapply F_val; eauto.
Qed.

(* with p the only thread that calls BehaviorSubject::next: when every thread has returned, the
   cell holds what p's script makes of the setup script's value *)
Lemma stored_value v0 setup scripts p sched s ths tr :
  setup_completes v0 setup = true ->
  (forall i sc, nth_error scripts i = Some sc -> i <> p -> has_bnext sc = false) ->
  irun (run_alone 1000 (ish0 v0) (start_thread setup)) (map start_thread scripts) sched = (s, ths, tr) ->
  ifinished ths = true -> s_val s = setup_value (setup_value v0 setup) (script scripts p).
Proof.
  intros Hc Hp Er Hf. set (s0 := run_alone 1000 (ish0 v0) (start_thread setup)) in *.
  rewrite <- (val_after_setup _ _ Hc). fold s0.
  set (F := setup_value (s_val s0) (script scripts p)).
  (* along the schedule: no panic, every thread at its place in its script, the cell on its way to F *)
  assert (Hinv : PanInv s ths /\ Static scripts ths /\ VInv p F s ths).
  { refine (irun_trace (fun _ s ths => PanInv s ths /\ Static scripts ths /\ VInv p F s ths) _ sched [] s0 _ s ths tr _ Er).
    - intros _ s1 ths1 t th s2 th2 o (HP & HSt & HV) He Ht Hm.
      split; [eapply PanInv_step; eauto|]. split; [eapply Static_step; eauto|].
      eapply VInv_step; eauto; [apply (HSt _ _ Ht)|apply HP].
    - split; [apply PanInv_init|]. split; [apply Static_init|]. split.
      + unfold pops, F, script. rewrite nth_error_map. destruct (nth_error scripts p); reflexivity.
      + apply ops_all_start. intros i sci x Hsci Hx Hne. exact (existsb_false_all _ _ (Hp _ _ Hsci Hne) x Hx). }
  exact (VInv_finished p F s ths (proj2 (proj2 Hinv)) Hf).
Qed.

Lemma setup_value_single scripts : forall p a,
  (forall i sc, nth_error scripts i = Some sc -> i <> p -> has_bnext sc = false) ->
  setup_value a (concat scripts) = setup_value a (script scripts p).
Proof.
  induction scripts as [|sc0 scripts IH]; intros p a Hp.
  - destruct p; reflexivity.
  - cbn [concat]. rewrite setup_value_app. unfold script. destruct p as [|p]; cbn [nth_error].
    + apply setup_value_nob. intros x Hx. apply in_concat in Hx. destruct Hx as (l & Hl & Hx).
      apply In_nth_error in Hl. destruct Hl as (i & Hi). refine (existsb_false_all _ _ (Hp (S i) l Hi _) x Hx). lia.
    + rewrite (setup_value_nob sc0).
      * apply IH. intros i sc Hi Hne. apply (Hp (S i) sc Hi). lia.
      * apply existsb_false_all. apply (Hp 0 sc0 eq_refl). lia.
Qed.

(* when every thread has returned, the value cell holds the last value passed to
   BehaviorSubject::next: by the single producer if it called next at all, by the setup script
   otherwise.  No probe, no hypothesis on names or terminals. *)
Theorem il_final_value_single_producer v0 setup scripts sched :
  setup_completes v0 setup = true -> single_producer setup scripts = true ->
  let '(tr, e, fin) := run_case v0 setup scripts sched in
  e = EFinished -> fin = setup_value v0 (setup ++ concat scripts).
Proof.
  intros Hc Hs. apply run_case_irun. intros s ths tr Er. intros Hf%finished_end.
  destruct (at_most_one_ex _ _ Hs) as (p & Hp).
  rewrite (stored_value _ _ _ p _ _ _ _ Hc Hp Er Hf), setup_value_app. symmetry.
  apply setup_value_single. exact Hp.
Qed.

(* the last broadcast of the order is the latest one of its thread *)
Definition LastMax (L : list bent) : Prop :=
  forall o' t j, ordL L = o' ++ [(t, j)] -> forall j', In (t, j') (ordL L) -> j' <= j.

Lemma LastMax_nil : LastMax [].
Proof. intros o' t j H. destruct (app_cons_not_nil _ _ _ H). Qed.

Lemma LastMax_snoc L ths t th v k0 :
  CO L ths -> LastMax L -> nth_error ths t = Some th -> LastMax (L ++ [(k0, v, (t, t_idx th))]).
Proof.
  intros [_ HCO] HL Ht. destruct (HCO _ _ Ht) as (C1 & _ & _).
  unfold LastMax. rewrite ordL_snoc. destruct (memb (t, t_idx th) (map snd L)) eqn:Em.
  - rewrite app_nil_r. exact HL.
  - intros o' t0 j Ho j' Hin. apply app_inj_tail in Ho. destruct Ho as [_ Ho]. inversion Ho; subst t0 j.
    apply in_app_or in Hin. destruct Hin as [Hin|[Hin|[]]].
    + apply C1. exact Hin.
    + inversion Hin. lia.
Qed.

Section Latest.
Variable k : nat.                       (* a full-time probe *)
Variable scripts : list (list iop).

Definition LInv (L : list bent) (s : ish) (ths : list ithread) : Prop :=
  LosslessInv k scripts L s ths /\ LastMax L.

Lemma LInv_step L s ths t th s1 th1 o :
  LInv L s ths -> ienabled s ths t = true -> nth_error ths t = Some th -> imove s t th = (s1, th1, o) ->
  LInv (L ++ bcasts scripts o) s1 (set_th ths t th1).
Proof.
  intros (HF & HL) He Ht Hm. split; [eapply LosslessInv_step; eauto|].
  destruct HF as (((_ & HSt & _ & _ & HCO) & _) & _).
  destruct (move_bcasts_cases scripts _ _ _ _ _ _ _ HSt Ht Hm) as [[-> _]|(v & k0 & rest & Hpc & ->)].
  - rewrite app_nil_r. exact HL.
  - exact (LastMax_snoc _ _ _ _ _ _ HCO HL Ht).
Qed.

End Latest.

Lemma values_ok_in scripts tr b :
  values_ok scripts tr = true -> In b (order scripts tr) ->
  exists v, op_at scripts b = Some (INext v) \/ op_at scripts b = Some (IBNext v).
Proof.
  unfold values_ok. rewrite forallb_forall. intros Hv Hb. rewrite order_L in Hb. apply ordL_in in Hb.
  apply in_map_iff in Hb. destruct Hb as (x & <- & Hx). specialize (Hv x Hx).
  destruct (op_at scripts (snd x)) as [[v|e|k|k|v|k| |]|]; try discriminate; eauto.
Qed.

Theorem il_latest_single_producer v0 setup scripts sched :
  names_ok setup scripts = true -> setup_completes v0 setup = true -> single_producer setup scripts = true ->
  let '(tr, e, fin) := run_case v0 setup scripts sched in latest_ok v0 setup scripts tr e fin = true.
Proof.
  intros Hn Hc Hs. apply run_case_irun. intros s ths tr Er.
  apply when_finished. intros Hf%finished_end k Hk Eh.
  destruct (at_most_one_ex _ _ Hs) as (p & Hp).
  rewrite (stored_value _ _ _ p _ _ _ _ Hc Hp Er Hf).
  destruct (irun_bcasts scripts _ (LInv_step k scripts) sched _ _ _ _ _
              (conj (LosslessInv_init k v0 setup scripts Hn Hc Hk Eh) LastMax_nil) Er) as (HF & HLM).
  (* every BehaviorSubject::next of the producer is in the global order *)
  assert (Hall : forall j v, nth_error (script scripts p) j = Some (IBNext v) -> In (p, j) (order scripts tr)).
  { intros j v Hj. unfold script in Hj. destruct (nth_error scripts p) as [l|] eqn:El; [|destruct j; discriminate].
    rewrite order_L. apply (bidsL_in _ k). apply (all_done k scripts _ _ _ _ _ _ HF Hf El). rewrite Hj. reflexivity. }
  pose proof (values_irun scripts sched _ _ _ _ _ (Static_init scripts) Er) as Hvals.
  destruct (order scripts tr) as [|[t j] o' _] eqn:Erev using rev_ind; [cbn|rewrite rev_unit].
  - (* nothing was broadcast: the producer's script has no BehaviorSubject::next *)
    rewrite setup_value_nob; [apply Z.eqb_refl|].
    intros x Hx. destruct x; try reflexivity. apply In_nth_error in Hx. destruct Hx as (j & Hj).
    destruct (Hall _ _ Hj).
  - assert (Hin : In (t, j) (order scripts tr)) by (rewrite Erev; apply in_or_app; right; left; reflexivity).
    destruct (values_ok_in _ _ _ Hvals Hin) as (v & [Hop|Hop]); rewrite Hop; [reflexivity|].
    (* the last broadcast is a BehaviorSubject::next: it is the producer's last one *)
    unfold op_at in Hop. cbn [fst snd] in Hop. destruct (nth_error scripts t) as [l|] eqn:El; [|discriminate].
    assert (t = p) as ->.
    { destruct (Nat.eq_dec t p) as [E|E]; [exact E|exfalso].
      discriminate (existsb_false_all _ _ (Hp _ _ El E) _ (nth_error_In _ _ Hop)). }
    unfold script. rewrite El. destruct (nth_error_split _ _ Hop) as (l1 & l2 & Hsc & Hl1).
    rewrite Hsc, setup_value_last; [apply Z.eqb_refl|].
    intros x Hx. destruct x as [v'|e|k'|k'|v'|k'| |]; try reflexivity. exfalso.
    apply In_nth_error in Hx. destruct Hx as (m & Hm).
    assert (nth_error (script scripts p) (S (j + m)) = Some (IBNext v')) as Hjm.
    { unfold script. rewrite El, Hsc, nth_error_app2 by lia. replace (S (j + m) - length l1) with (S m) by lia. exact Hm. }
    specialize (Hall _ _ Hjm). rewrite <- Erev in Hall. pose proof (HLM _ _ _ Erev _ Hall). lia.
Qed.

(* two producers (the schedule of Props/C12.v): thread 0 stores 1, thread 1 stores 2 and
   broadcasts 2, thread 0 broadcasts 1 *)
Definition race_sched : list nat := [0; 1; 1; 1; 1; 1; 1] ++ flat_map (fun _ => [0; 1]) (seq 0 20).

Example latest_needs_single_producer :
  (let '(tr, e, fin) := run_case 0%Z [IBSub 0] [[IBNext 1%Z]; [IBNext 2%Z]] race_sched in
   (names_ok [IBSub 0] [[IBNext 1%Z]; [IBNext 2%Z]], setup_completes 0%Z [IBSub 0],
    single_producer [IBSub 0] [[IBNext 1%Z]; [IBNext 2%Z]], e, order [[IBNext 1%Z]; [IBNext 2%Z]] tr, fin,
    latest_ok 0%Z [IBSub 0] [[IBNext 1%Z]; [IBNext 2%Z]] tr e fin))
  = (true, true, false, EFinished, [(1, 0); (0, 0)], 2%Z, false).
Proof. vm_compute. reflexivity. Qed.

(* a non-trivial case that satisfies the hypotheses: the setup script itself calls next, one thread
   calls BehaviorSubject::next three times, a second thread subscribes / peeks / unsubscribes, a third
   one calls the plain `next` of the inner subject; interleaved *)
Definition lp_setup : list iop := [IBSub 0; IBNext 3%Z; ISub 4].
Definition lp_scripts : list (list iop) :=
  [[IBNext 1%Z; IBPeek; IBNext 2%Z; IBSub 5; IBNext 7%Z]; [ISub 1; IBPeek; IUnsub 1; IBSub 2]; [INext 9%Z; IBPeek]].
Definition lp_sched : list nat := [0;1;2;0;1;2;2;0;0;1;1;2;0;1;0;2;0;0;0;1;1;1;2;2;2] ++ concat (repeat [0;0;1;2] 40).

Example latest_hyps_satisfiable :
  (let '(tr, e, fin) := run_case 0%Z lp_setup lp_scripts lp_sched in
   (names_ok lp_setup lp_scripts, setup_completes 0%Z lp_setup, single_producer lp_setup lp_scripts,
    full_time lp_setup lp_scripts, has_term (lp_setup ++ concat lp_scripts), e,
    order lp_scripts tr, fin, latest_ok 0%Z lp_setup lp_scripts tr e fin))
  = (true, true, true, [0; 4], false, EFinished, [(2, 0); (0, 0); (0, 2); (0, 4)], 7%Z, true).
Proof. vm_compute. reflexivity. Qed.

(* the same scripts under another schedule, and a case with no thread calling next at all (the value
   is the setup script's) *)
Example latest_cases :
  (let '(tr, e, fin) := run_case 0%Z lp_setup lp_scripts (repeat 0 14 ++ repeat 2 20 ++ concat (repeat [0;1;2] 60)) in
   (e, order lp_scripts tr, fin, latest_ok 0%Z lp_setup lp_scripts tr e fin),
   let '(tr, e, fin) := run_case 0%Z lp_setup [[IBPeek]; [IBSub 1]] (repeat 0 10 ++ repeat 1 10) in
   (e, order [[IBPeek]; [IBSub 1]] tr, fin, latest_ok 0%Z lp_setup [[IBPeek]; [IBSub 1]] tr e fin))
  = ((EFinished, [(0, 0); (0, 2); (2, 0); (0, 4)], 7%Z, true), (EFinished, [], 3%Z, true)).
Proof. vm_compute. reflexivity. Qed.

(* Props/C12.v refutes the joiner clause as soon as one thread calls BehaviorSubject::next while
   another one subscribes.  "No BehaviorSubject::next in the threads' scripts" is NOT enough either
   when a thread calls the plain next of the inner subject: the value cell is not updated by it, so
   a subscriber that joins afterwards is handed the old value *)
Example joiner_fails_with_plain_next :
  (let '(tr, e, fin) := run_case 0%Z [ISub 0] [[INext 5%Z]; [IBSub 1]] (repeat 0 10 ++ repeat 1 10) in
   (names_ok [ISub 0] [[INext 5%Z]; [IBSub 1]], setup_completes 0%Z [ISub 0],
    existsb has_bnext [[INext 5%Z]; [IBSub 1]], e, order [[INext 5%Z]; [IBSub 1]] tr,
    joiner_ok 0%Z [ISub 0] [[INext 5%Z]; [IBSub 1]] tr e))
  = (true, true, false, EFinished, [(0, 0)], false).
Proof. vm_compute. reflexivity. Qed.

(* no thread calls next, of either kind: values only change in the setup script *)
Definition is_anynext (o : iop) : bool := match o with INext _ | IBNext _ => true | _ => false end.
Definition no_next (scripts : list (list iop)) : bool :=
  forallb (fun sc => negb (existsb is_anynext sc)) scripts.

Lemma no_next_op scripts b :
  no_next scripts = true -> is_nextop (op_at scripts b) = false.
Proof.
  unfold no_next, op_at. rewrite forallb_forall. intros H.
  destruct (nth_error scripts (fst b)) as [sc|] eqn:Esc; [|reflexivity].
  specialize (H sc (nth_error_In _ _ Esc)). apply negb_true_iff in H.
  destruct (nth_error sc (snd b)) as [o|] eqn:Eo; [|reflexivity].
  pose proof (existsb_false_all _ _ H o (nth_error_In _ _ Eo)) as Ho.
  destruct o; try discriminate; reflexivity.
Qed.

Lemma no_next_bcasts scripts tr :
  no_next scripts = true -> values_ok scripts tr = true -> bcasts scripts tr = [].
Proof.
  unfold values_ok. intros Hn Hv. destruct (bcasts scripts tr) as [|x l]; [reflexivity|exfalso].
  cbn [forallb] in Hv. apply andb_true_iff in Hv. destruct Hv as [Hx _].
  pose proof (no_next_op scripts (snd x) Hn) as H.
  destruct (op_at scripts (snd x)) as [[v|e|k|k|v|k| |]|]; discriminate.
Qed.

Lemma F_incbB s t th s1 th1 o k x :
  imove s t th = (s1, th1, o) -> t_pc th1 = PInCbB k x -> x = s_val s.
Proof.
  intros H%imove_istep. destruct H; unfold next_cell; try destruct rest; cbn [t_pc]; intros Hpc; try discriminate.
  inversion Hpc; reflexivity.
Qed.

Section Joiner.
Variable scripts : list (list iop).
Variable SV : Z.
Hypothesis Hnn : no_next scripts = true.

(* a value handed over on subscription is SV *)
Definition jchk (x : itr) : bool :=
  match x with
  | TEv k (YItem x0) t j => negb (is_initial scripts (t, j)) || Z.eqb x0 SV
  | _ => true
  end.

(* the value cell never changes, and whoever subscribes is handed its value *)
Definition QuietCellInv (s : ish) (ths : list ithread) : Prop :=
  Static scripts ths /\ s_val s = SV /\
  (forall i th k x, nth_error ths i = Some th -> t_pc th = PInCbB k x -> x = SV).

Lemma QuietCellInv_step s ths t th s1 th1 o :
  QuietCellInv s ths -> ienabled s ths t = true -> nth_error ths t = Some th -> imove s t th = (s1, th1, o) ->
  (forall x, In x o -> jchk x = true) /\ QuietCellInv s1 (set_th ths t th1).
Proof.
  intros (HSt & Hv & Hcb) He Ht Hm. split; [|split; [eapply Static_step; eauto|split]].
  - intros x Hx. destruct x as [ | k [x0|e] t' j | | | | ]; try reflexivity.
    destruct (static_ev _ _ _ _ _ _ _ _ _ _ _ _ HSt Ht Hm Hx) as (-> & -> & Hc). unfold jchk.
    destruct Hc as [(rest & v' & _ & _ & Hi & _)|[(rest & e & _ & Hp)|(x & Hpc & Hp & _)]]; try discriminate.
    + rewrite Hi. reflexivity.
    + inversion Hp; subst. rewrite (Hcb _ _ _ _ Ht Hpc), Z.eqb_refl. apply orb_true_r.
  - rewrite (F_val_same _ _ _ _ _ _ Hm); [exact Hv|]. intros v r Hops.
    destruct (HSt _ _ Ht) as (_ & sc & Hsc & Hl). unfold link in Hl. rewrite Hops in Hl.
    destruct Hl as (o0 & Hn0 & _ & [->|(v' & _ & E)]); [|discriminate E].
    pose proof (no_next_op scripts (t, t_idx th) Hnn) as H. unfold op_at in H. cbn [fst snd] in H.
    rewrite Hsc, Hn0 in H. discriminate H.
  - intros i y k x Hi Hpc. destruct (nth_set_th_inv _ _ _ _ _ _ Ht Hi) as [[-> ->]|[Hni Hi']]; [|eauto].
    rewrite (F_incbB _ _ _ _ _ _ _ _ Hm Hpc). exact Hv.
Qed.

End Joiner.

(* C12, joiner clause, where it holds for every schedule: no thread calls next (of either kind).
   Then nothing is broadcast, and every subscriber that joins is handed the setup script's value. *)
Theorem il_joiner_no_next v0 setup scripts sched :
  setup_completes v0 setup = true -> no_next scripts = true ->
  let '(tr, e, fin) := run_case v0 setup scripts sched in joiner_ok v0 setup scripts tr e = true.
Proof.
  intros Hc Hn. apply run_case_irun. intros s ths tr Er. apply when_finished. intros _ _ _ _.
  pose proof (no_next_bcasts _ _ Hn (values_irun scripts sched _ _ _ _ _ (Static_init scripts) Er)) as Hb.
  assert (HJ0 : QuietCellInv scripts (setup_value v0 setup) (run_alone 1000 (ish0 v0) (start_thread setup))
                     (map start_thread scripts)).
  { split; [apply Static_init|]. split; [apply val_after_setup; exact Hc|].
    intros i th k x Hi Hpc. apply nth_map_start in Hi. destruct Hi as (sc & _ & ->). discriminate. }
  pose proof (irun_forallb _ _ (QuietCellInv_step scripts (setup_value v0 setup) Hn) sched _ _ _ _ _ HJ0 Er) as Hw.
  rewrite forallb_forall in Hw |- *. intros x Hx. specialize (Hw x Hx).
  destruct x as [ | k [x0|e] t j | | | | ]; try reflexivity.
  unfold jchk in Hw. unfold bids_of, order. rewrite Hb.
  destruct (is_initial scripts (t, j)); [|reflexivity]. cbn [negb orb] in Hw.
  destruct (negb (imem k (unsubscribed_in (concat scripts)))); [|reflexivity]. cbn. rewrite Hw. reflexivity.
Qed.

(* the hypothesis of il_joiner_no_next is satisfiable: three threads subscribe / peek / unsubscribe
   concurrently *)
Example joiner_hyps_satisfiable :
  (let '(tr, e, fin) := run_case 0%Z [IBSub 0; IBNext 3%Z; INext 4%Z] [[IBSub 1; IBPeek]; [ISub 2; IBSub 3; IUnsub 2]; [IBPeek; IBSub 4]]
                                 (concat (repeat [0;1;2;2;1] 20)) in
   (setup_completes 0%Z [IBSub 0; IBNext 3%Z; INext 4%Z], no_next [[IBSub 1; IBPeek]; [ISub 2; IBSub 3; IUnsub 2]; [IBPeek; IBSub 4]],
    full_time [IBSub 0; IBNext 3%Z; INext 4%Z] [[IBSub 1; IBPeek]; [ISub 2; IBSub 3; IUnsub 2]; [IBPeek; IBSub 4]], e,
    probes_of tr, joiner_ok 0%Z [IBSub 0; IBNext 3%Z; INext 4%Z] [[IBSub 1; IBPeek]; [ISub 2; IBSub 3; IUnsub 2]; [IBPeek; IBSub 4]] tr e))
  = (true, true, [0], EFinished, [1; 3; 4], true).
Proof. vm_compute. reflexivity. Qed.

(* The joiner clause fails when one thread subscribes while ANOTHER one is inside
   BehaviorSubject::next (Props/C12.v).  It holds when the subscribers that join are subscribed by the
   producer thread itself: the thread that calls BehaviorSubject::next is also the one that calls
   BehaviorSubject::subscribe, every other thread only subscribes plainly, unsubscribes and peeks,
   and nobody calls the plain next of the inner subject. *)

Definition quiet_op (o : iop) : bool := match o with ISub _ | IUnsub _ | IBPeek => true | _ => false end.
Definition not_plain_next (o : iop) : bool := match o with INext _ => false | _ => true end.

(* at most one thread does anything but subscribe plainly, unsubscribe and peek, and no script
   calls the inner subject's plain next *)
Definition joiners_with_producer (scripts : list (list iop)) : bool :=
  Nat.leb (length (filter (fun sc => negb (forallb quiet_op sc)) scripts)) 1 &&
  forallb (forallb not_plain_next) scripts.

Lemma F_quiet s t th s1 th1 o :
  imove s t th = (s1, th1, o) -> t_pc th = PIdle -> (forall x, In x (t_ops th) -> quiet_op x = true) ->
  t_pc th1 = PIdle /\ (forall x, In x (t_ops th1) -> In x (t_ops th)) /\ s_val s1 = s_val s.
Proof.
  intros H%imove_istep. destruct H; cbn [t_pc t_ops]; intros Hpc Hq; try discriminate Hpc;
    try discriminate (Hq _ (or_introl eq_refl)).
  all: rewrite ?val_sub; repeat split; auto; intros x Hx; right; exact Hx.
Qed.

Lemma F_from_incbB s t th s1 th1 o k1 x :
  imove s t th = (s1, th1, o) -> t_pc th = PInCbB k1 x -> t_pc th1 = PSubCham k1.
Proof.
  intros H%imove_istep. destruct H; cbn [t_pc]; intros Hpc; try discriminate Hpc. injection Hpc as -> _. reflexivity.
Qed.

Lemma F_from_subcham s t th s1 th1 o k1 :
  imove s t th = (s1, th1, o) -> t_pc th = PSubCham k1 -> th1 = op_done th.
Proof. intros H%imove_istep. destruct H; cbn [t_pc]; intros Hpc; try discriminate Hpc. reflexivity. Qed.

Section JoinP.
Variable scripts : list (list iop).
Variable SV : Z.
Variable p : nat.     (* the thread that calls next and subscribes the joiners *)
Variable k0 : nat.    (* a full-time probe *)
Variable k : nat.     (* the joiner *)

Hypothesis Hnn : forall sc x, In sc scripts -> In x sc -> not_plain_next x = true.

(* x0 is the value of the last broadcast of o (the setup script's value when o is empty) *)
Definition lv (o : list bid) (x0 : Z) : bool :=
  match rev o with
  | b :: _ => match value_of scripts b with Some v => Z.eqb v x0 | None => false end
  | [] => Z.eqb x0 SV
  end.

(* the values probe k was handed on subscription *)
Definition jev (x : itr) : list Z :=
  match x with
  | TEv k' (YItem x0) t j => if is_initial scripts (t, j) && Nat.eqb k' k then [x0] else []
  | _ => []
  end.

Lemma jev_silent o : forallb (fun x => negb (is_ev x)) o = true -> flat_map jev o = [].
Proof.
  induction o as [|x o IH]; cbn; [reflexivity|]. intros H. apply andb_true_iff in H. destruct H as [Hx Ho].
  destruct x; try discriminate; cbn; auto.
Qed.

Lemma move_jev s ths t th s1 th1 o :
  Static scripts ths -> nth_error ths t = Some th -> imove s t th = (s1, th1, o) ->
  flat_map jev o = [] \/ exists x, t_pc th = PInCbB k x /\ flat_map jev o = [x].
Proof.
  intros HS Ht Hm. destruct (in_cb (t_pc th)) as [k'|] eqn:Ec.
  - destruct (F_out _ _ _ _ _ _ _ Hm Ec) as (p' & Ho).
    assert (In (TEv k' p' t (t_idx th)) o) as Hin by (rewrite Ho; cbn; auto).
    destruct (static_ev _ _ _ _ _ _ _ _ _ _ _ _ HS Ht Hm Hin) as (_ & _ & Hc). rewrite Ho.
    destruct Hc as [(rest & v & _ & -> & Hi & _)|[(rest & e & _ & ->)|(x & Hpc & -> & Hi)]];
      cbn; rewrite ?Hi; auto.
    destruct (Nat.eqb k' k) eqn:E; [|auto]. apply Nat.eqb_eq in E. subst k'. right. eauto.
  - left. apply jev_silent. eapply F_noev; eauto.
Qed.

Lemma no_jev s ths t th s1 th1 o :
  Core s ths -> Static scripts ths -> nth_error ths t = Some th -> imove s t th = (s1, th1, o) ->
  cell_known s k = true -> flat_map jev o = [].
Proof.
  intros HC HS Ht Hm Hk. destruct (move_jev _ _ _ _ _ _ _ HS Ht Hm) as [E|(x & Epc & _)]; [exact E|exfalso].
  pose proof (in_cb_B _ _ _ (c_pcok _ _ HC _ _ Ht) Epc) as Hs.
  rewrite (c_fresh _ _ HC _ _ _ Ht Hs) in Hk. discriminate.
Qed.

(* every thread but p is between two operations and only subscribes plainly, unsubscribes, peeks *)
Definition OnlyP (ths : list ithread) : Prop :=
  forall i th, nth_error ths i = Some th -> i <> p ->
               t_pc th = PIdle /\ forall x, In x (t_ops th) -> quiet_op x = true.

(* the value cell against the global order: between the two halves of a BehaviorSubject::next the
   cell holds the value about to be broadcast, otherwise the value of the last broadcast; and a
   subscriber inside BehaviorSubject::subscribe was handed what the cell holds *)
Definition RelP (L : list bent) (s : ish) (ths : list ithread) : Prop :=
  forall th, nth_error ths p = Some th ->
    (forall k' x, t_pc th = PInCbB k' x -> x = s_val s) /\
    match t_ops th with INext v :: _ => s_val s = v | _ => lv (ordL L) (s_val s) = true end.

(* the joiner gets no broadcast while it has no cell *)
Definition NoCell (L : list bent) (s : ish) : Prop := cell_known s k = false -> bidsL L k = [].

(* what holds along a schedule whatever the joiner's phase *)
Definition ProducerInv (L : list bent) (s : ish) (ths : list ithread) : Prop :=
  LosslessInv k0 scripts L s ths /\ OnlyP ths /\ ops_all (fun _ x => x <> IUnsub k) ths /\ RelP L s ths /\ NoCell L s.

Lemma OnlyP_step s ths t t' th s1 th1 o :
  OnlyP ths -> nth_error ths t = Some th -> imove s t' th = (s1, th1, o) -> OnlyP (set_th ths t th1).
Proof.
  intros HO Ht Hm i x Hi Hne. destruct (nth_set_th_inv _ _ _ _ _ _ Ht Hi) as [[-> ->]|[Hni Hi']]; [|eauto].
  destruct (HO _ _ Ht Hne) as [Hpc Hq]. destruct (F_quiet _ _ _ _ _ _ Hm Hpc Hq) as (H1 & H2 & _).
  split; [exact H1|]. intros y Hy. apply Hq. apply H2. exact Hy.
Qed.

Lemma quiet_move s ths t th s1 th1 o :
  Static scripts ths -> OnlyP ths -> nth_error ths t = Some th -> t <> p -> imove s t th = (s1, th1, o) ->
  bcasts scripts o = [] /\ flat_map jev o = [] /\ s_val s1 = s_val s.
Proof.
  intros HSt HO Ht Hne Hm. destruct (HO _ _ Ht Hne) as [Hpc Hq].
  rewrite (move_bcasts scripts _ _ _ _ _ _ _ HSt Ht Hm), Hpc. split; [reflexivity|].
  split; [|apply (F_quiet _ _ _ _ _ _ Hm Hpc Hq)].
  destruct (move_jev _ _ _ _ _ _ _ HSt Ht Hm) as [E|(x & Epc & _)]; [exact E|congruence].
Qed.

Lemma quiet_not_bnext x : quiet_op x = true -> is_bnext x = false.
Proof. destruct x; try discriminate; reflexivity. Qed.

(* the producer's script has no plain next: a pending `INext v` is the second half of a
   BehaviorSubject::next *)
Lemma head_is_bnext ths th v r :
  Static scripts ths -> nth_error ths p = Some th -> t_ops th = INext v :: r ->
  op_at scripts (p, t_idx th) = Some (IBNext v).
Proof.
  intros HS Ht Hops. destruct (HS _ _ Ht) as (_ & sc & Hsc & Hl). unfold link in Hl. rewrite Hops in Hl.
  destruct Hl as (o0 & Hn & _ & Ho). unfold op_at. cbn [fst snd]. rewrite Hsc, Hn.
  destruct Ho as [->|(v' & -> & Hv)]; [|inversion Hv; reflexivity].
  exfalso. pose proof (Hnn sc (INext v) (nth_error_In _ _ Hsc) (nth_error_In _ _ Hn)) as H. discriminate H.
Qed.

Lemma next_head_not_plain ths th o0 r v r' :
  Static scripts ths -> nth_error ths p = Some th -> t_ops th = o0 :: r -> r <> INext v :: r'.
Proof.
  intros HS Ht Hops ->. destruct (HS _ _ Ht) as (_ & sc & Hsc & Hl). unfold link in Hl. rewrite Hops in Hl.
  destruct Hl as (o1 & _ & Hsk & _). apply skipn_cons in Hsk. destruct Hsk as [Hn _].
  pose proof (Hnn sc (INext v) (nth_error_In _ _ Hsc) (nth_error_In _ _ Hn)) as H. discriminate H.
Qed.

Lemma RelP_intro L s th :
  (forall v r, t_ops th <> INext v :: r) -> lv (ordL L) (s_val s) = true ->
  match t_ops th with INext v :: _ => s_val s = v | _ => lv (ordL L) (s_val s) = true end.
Proof.
  intros Hh Hl. destruct (t_ops th) as [|[v|e|k1|k1|v|k1| |] r]; auto. exfalso. eapply Hh. reflexivity.
Qed.

Lemma RelP_step L s ths t th s1 th1 o :
  ProducerInv L s ths -> nth_error ths t = Some th -> imove s t th = (s1, th1, o) ->
  LosslessInv k0 scripts (L ++ bcasts scripts o) s1 (set_th ths t th1) ->
  RelP (L ++ bcasts scripts o) s1 (set_th ths t th1).
Proof.
  intros (HF & HO & _ & HR & _) Ht Hm HF' thp Hthp.
  destruct HF as (((HC & HSt & _ & _ & HCO) & _) & _).
  destruct (Nat.eq_dec t p) as [->|Hne].
  2:{ rewrite nth_set_th_other in Hthp by exact Hne.
      destruct (quiet_move _ _ _ _ _ _ _ HSt HO Ht Hne Hm) as (-> & _ & ->). rewrite app_nil_r. apply HR. exact Hthp. }
  rewrite (nth_set_th_same _ _ _ _ Ht) in Hthp. injection Hthp as <-.
  destruct (HR _ Ht) as [_ HRv]. pose proof (c_pcok _ _ HC _ _ Ht) as Hpc.
  pose proof (move_bcasts scripts _ _ _ _ _ _ _ HSt Ht Hm) as HB.
  (* only a move under a pending broadcast broadcasts *)
  assert (Hsil : bcasts scripts o = [] \/ exists v r, t_ops th = INext v :: r).
  { rewrite HB. unfold pc_ok in Hpc. destruct (t_pc th); auto. right. exists v. exact Hpc. }
  destruct (F_script _ _ _ _ _ _ Hm Hpc (c_cham _ _ HC)) as
      [(v & r & _ & _ & Hops1 & Hv & _ & Hp1)|[(Hv & Hops1 & _)|(Hv & Hidx & Hp1 & o0 & Hops & _)]].
  - split; [intros k' x Hx; congruence|]. rewrite Hops1. exact Hv.
  - split; [intros k' x Hx; rewrite Hv; eapply F_incbB; eauto|]. rewrite Hops1, Hv.
    destruct Hsil as [->|(v & r & E)]; [rewrite app_nil_r|rewrite E in *]; exact HRv.
  - split; [intros k' x Hx; congruence|]. apply RelP_intro.
    { intros v r Hr. eapply (next_head_not_plain ths th o0 (t_ops th1)); eauto. }
    rewrite Hv, Hops in *. destruct o0 as [v|e|k1|k1|v|k1| |];
      try (destruct Hsil as [->|(v' & r & E)]; [rewrite app_nil_r; exact HRv|discriminate E]).
    (* a broadcast returns: it is the last one of the global order *)
    rewrite HRv. pose proof (head_is_bnext ths th v (t_ops th1) HSt Ht Hops) as Hop.
    assert (Hin : In (p, t_idx th) (ordL (L ++ bcasts scripts o))).
    { apply (bidsL_in _ k0). destruct HF' as (_ & _ & HD'). pose proof Hop as Hsc. unfold op_at in Hsc. cbn [fst snd] in Hsc.
      destruct (nth_error scripts p) as [sc|] eqn:Esc; [|discriminate].
      destruct (HD' p sc (t_idx th) Esc) as [H|(x & Hx & Hr)]; [rewrite Hsc; reflexivity|exact H|].
      rewrite (nth_set_th_same _ _ _ _ Ht) in Hx. injection Hx as <-. lia. }
    destruct (proj2 HCO _ _ Ht) as (_ & C2 & _).
    assert (exists o', ordL (L ++ bcasts scripts o) = o' ++ [(p, t_idx th)]) as (o' & ->).
    { destruct (move_bcasts_cases scripts _ _ _ _ _ _ _ HSt Ht Hm) as [[E _]|(v' & k1 & rest & _ & E)];
        rewrite E in *; [rewrite app_nil_r in *; apply C2; exact Hin|].
      rewrite ordL_snoc. destruct (memb (p, t_idx th) (map snd L)) eqn:Em.
      - rewrite app_nil_r. apply C2. apply memb_ordL. exact Em.
      - eexists. reflexivity. }
    unfold lv, value_of. rewrite rev_unit, Hop. apply Z.eqb_refl.
Qed.

Lemma NoCell_step L s ths t th s1 th1 o :
  Core s ths -> Static scripts ths -> NoCell L s -> nth_error ths t = Some th -> imove s t th = (s1, th1, o) ->
  NoCell (L ++ bcasts scripts o) s1.
Proof.
  intros HC HSt HN Ht Hm Hk1. rewrite (F_known _ _ _ _ _ _ k Hm) in Hk1. apply orb_false_iff in Hk1.
  destruct Hk1 as [Hk _].
  destruct (move_bcasts_cases scripts _ _ _ _ _ _ _ HSt Ht Hm) as [[-> _]|(v & k1 & rest & Epc & ->)];
    [rewrite app_nil_r; auto|].
  rewrite bidsL_snoc, (HN Hk). destruct (Nat.eqb k1 k) eqn:E; [|reflexivity]. apply Nat.eqb_eq in E. subst k1.
  pose proof (c_local _ _ HC _ _ Ht) as Hl. unfold local in Hl. rewrite Epc in Hl.
  rewrite (alive_known _ _ Hl) in Hk. discriminate.
Qed.

Lemma ProducerInv_step L s ths t th s1 th1 o :
  ProducerInv L s ths -> ienabled s ths t = true -> nth_error ths t = Some th -> imove s t th = (s1, th1, o) ->
  ProducerInv (L ++ bcasts scripts o) s1 (set_th ths t th1).
Proof.
  intros HCI He Ht Hm. pose proof HCI as (HF & HO & HN & HR & HNC).
  pose proof (LosslessInv_step k0 scripts _ _ _ _ _ _ _ _ HF He Ht Hm) as HF'.
  destruct HF as (((HC & HSt & _) & _) & _).
  split; [exact HF'|]. split; [eapply OnlyP_step; eauto|]. split; [eapply ops_all_step; eauto; discriminate|].
  split; [eapply RelP_step; eauto|eapply NoCell_step; eauto].
Qed.

(* the joiner: handed a value and about to be pushed into the chamber; then subscribed *)
Definition Ph1 (L : list bent) (evs : list Z) (ths : list ithread) : Prop :=
  (exists th, nth_error ths p = Some th /\ t_pc th = PSubCham k) /\
  forall x0, In x0 evs -> lv (ordL L) x0 = true.

(* from then on the joiner is a full-time probe of what comes after the order at that moment *)
Definition Ph2 (L : list bent) (evs : list Z) (s : ish) (ths : list ithread) : Prop :=
  exists before, ProbeInv k scripts before L s ths /\ forall x0, In x0 evs -> lv before x0 = true.

(* before the joiner is handed a value there is nothing to say *)
Definition Ph (L : list bent) (evs : list Z) (s : ish) (ths : list ithread) : Prop :=
  evs = [] \/ Ph1 L evs ths \/ Ph2 L evs s ths.

(* the producer hands the joiner the value of the last broadcast *)
Lemma Ph_handed_step L s ths t th s1 th1 o :
  ProducerInv L s ths -> nth_error ths t = Some th -> imove s t th = (s1, th1, o) ->
  flat_map jev o = [] \/ Ph1 (L ++ bcasts scripts o) (flat_map jev o) (set_th ths t th1).
Proof.
  intros (HF & HO & _ & HR & _) Ht Hm. destruct HF as (((HC & HSt & _) & _) & _).
  destruct (move_jev _ _ _ _ _ _ _ HSt Ht Hm) as [E|(x & Epc & ->)]; [left; exact E|right].
  (* only thread p is ever inside an operation *)
  assert (t = p) as ->.
  { destruct (Nat.eq_dec t p) as [E|E]; [exact E|]. destruct (HO _ _ Ht E) as [H _]. congruence. }
  rewrite (move_bcasts scripts _ _ _ _ _ _ _ HSt Ht Hm), Epc, app_nil_r. split.
  - exists th1. split; [eapply nth_set_th_same; eauto|eapply F_from_incbB; eauto].
  - intros x0 [<-|[]]. destruct (HR _ Ht) as [Hx Hv]. rewrite (Hx _ _ Epc).
    pose proof (c_pcok _ _ HC _ _ Ht) as Hpc. unfold pc_ok in Hpc. rewrite Epc in Hpc. destruct Hpc as (r & Hr).
    rewrite Hr in Hv. exact Hv.
Qed.

(* when the subscription completes every thread is between two operations, and the joiner is a
   full-time probe of the rest of the execution *)
Lemma join_ProbeInv L s ths th s1 th1 o :
  ProducerInv L s ths -> ProducerInv L s1 (set_th ths p th1) ->
  nth_error ths p = Some th -> t_pc th = PSubCham k -> imove s p th = (s1, th1, o) ->
  ProbeInv k scripts (ordL L) L s1 (set_th ths p th1).
Proof.
  intros (HF & HO & _ & _ & HNC) (HF' & _ & HN' & _) Ht Hpc Hm.
  destruct HF as (((HC & _) & _) & _). destruct HF' as ((HI' & _) & _).
  assert (Hidle : forall i th', nth_error (set_th ths p th1) i = Some th' -> t_pc th' = PIdle).
  { intros i th' Hi. destruct (nth_set_th_inv _ _ _ _ _ _ Ht Hi) as [[-> ->]|[Hni Hi']].
    - rewrite (F_from_subcham _ _ _ _ _ _ _ Hm Hpc). reflexivity.
    - apply (HO _ _ Hi' Hni). }
  apply ProbeInv_idle; [exact HI'|eapply F_sub_KIn; [exact Hm| |apply HC]|exact Hidle|exact HN'| |].
  - unfold sub_now. rewrite Hpc. reflexivity.
  - (* what is in the order belongs to operations that have returned *)
    intros t th' j Ht' Hin. destruct HI' as (_ & _ & _ & _ & [_ HCO]). destruct (HCO _ _ Ht') as (C1 & C2 & _).
    specialize (C1 _ Hin). destruct (Nat.eq_dec j (t_idx th')) as [->|]; [|lia].
    destruct (C2 Hin) as [Hd _]. rewrite (Hidle _ _ Ht') in Hd. discriminate.
  - rewrite HNC, app_nil_r; [reflexivity|]. apply (c_fresh _ _ HC _ _ _ Ht).
    pose proof (c_pcok _ _ HC _ _ Ht) as Hp'. unfold pc_ok in Hp'. rewrite Hpc in Hp'. destruct Hp' as (r & Hr).
    unfold subs. rewrite Hr. left. reflexivity.
Qed.

Lemma Ph1_step L evs s ths t th s1 th1 o :
  ProducerInv L s ths -> ProducerInv (L ++ bcasts scripts o) s1 (set_th ths t th1) -> Ph1 L evs ths ->
  nth_error ths t = Some th -> imove s t th = (s1, th1, o) ->
  Ph1 (L ++ bcasts scripts o) (evs ++ flat_map jev o) (set_th ths t th1) \/
  Ph2 (L ++ bcasts scripts o) (evs ++ flat_map jev o) s1 (set_th ths t th1).
Proof.
  intros HCI HCI' [(thp & Hthp & Hpcp) Hev] Ht Hm. pose proof HCI as (HF & HO & _).
  destruct HF as (((_ & HSt & _) & _) & _).
  destruct (Nat.eq_dec t p) as [->|Hne].
  - right. assert (thp = th) by congruence. subst thp.
    destruct (move_jev _ _ _ _ _ _ _ HSt Ht Hm) as [->|(x & Epc & _)]; [|congruence].
    rewrite (move_bcasts scripts _ _ _ _ _ _ _ HSt Ht Hm), Hpcp, !app_nil_r in *.
    exists (ordL L). split; [exact (join_ProbeInv _ _ _ _ _ _ _ HCI HCI' Ht Hpcp Hm)|exact Hev].
  - left. destruct (quiet_move _ _ _ _ _ _ _ HSt HO Ht Hne Hm) as (-> & -> & _). rewrite !app_nil_r.
    split; [|exact Hev]. exists thp. rewrite nth_set_th_other by exact Hne. auto.
Qed.

Lemma Ph2_step L evs s ths t th s1 th1 o :
  ProducerInv L s ths -> Ph2 L evs s ths -> ienabled s ths t = true -> nth_error ths t = Some th ->
  imove s t th = (s1, th1, o) ->
  Ph2 (L ++ bcasts scripts o) (evs ++ flat_map jev o) s1 (set_th ths t th1).
Proof.
  intros (HF & _) (before & HFT & Hev) He Ht Hm. destruct HF as (((HC & HSt & _) & _) & [Hobs _] & _).
  exists before. split; [eapply ProbeInv_step; eauto|].
  (* the joiner has a cell: it is handed nothing any more *)
  rewrite (no_jev _ _ _ _ _ _ _ HC HSt Ht Hm), app_nil_r; [exact Hev|].
  destruct HFT as (_ & HS & _). destruct (s_obs s) as [ob|] eqn:Eo; [|congruence].
  apply alive_known. apply (si_kin _ _ _ HS ob Eo).
Qed.

(* the invariant of il_joiner_with_producer, over the trace so far *)
Definition JoinerInv (pre : list itr) (s : ish) (ths : list ithread) : Prop :=
  ProducerInv (bcasts scripts pre) s ths /\ Ph (bcasts scripts pre) (flat_map jev pre) s ths.

Lemma JoinerInv_step pre s ths t th s1 th1 o :
  JoinerInv pre s ths -> ienabled s ths t = true -> nth_error ths t = Some th -> imove s t th = (s1, th1, o) ->
  JoinerInv (pre ++ o) s1 (set_th ths t th1).
Proof.
  intros [HCI HP] He Ht Hm. unfold JoinerInv. rewrite bcasts_app, flat_map_app.
  pose proof (ProducerInv_step _ _ _ _ _ _ _ _ HCI He Ht Hm) as HCI'. split; [exact HCI'|].
  destruct HP as [->|[HP|HP]].
  - destruct (Ph_handed_step _ _ _ _ _ _ _ _ HCI Ht Hm) as [->|H]; [left; reflexivity|right; left; exact H].
  - right. exact (Ph1_step _ _ _ _ _ _ _ _ _ HCI HCI' HP Ht Hm).
  - right; right. exact (Ph2_step _ _ _ _ _ _ _ _ _ HCI HP He Ht Hm).
Qed.

(* when every thread has returned: what the joiner saw is the part of the global order after the
   broadcast whose value it was handed *)
Lemma joiner_end L evs s ths x0 :
  Ph L evs s ths -> ifinished ths = true -> In x0 evs ->
  existsb (fun n => list_bid_eqb (skipn n (ordL L)) (bidsL L k) && lv (firstn n (ordL L)) x0)
          (seq 0 (S (length (ordL L)))) = true.
Proof.
  intros HP Hf Hx0. pose proof (finished_quiet _ Hf) as Hq.
  destruct HP as [->|[[(thp & Hthp & Hpc) _]|(before & HFT & Hev)]]; [destruct Hx0| |].
  - destruct (finished_th _ _ _ Hf Hthp) as [E _]. congruence.
  - apply existsb_exists. exists (length before). rewrite (ProbeInv_quiet _ _ _ _ _ _ HFT Hq). split.
    + apply in_seq. rewrite app_length. lia.
    + rewrite skipn_app, skipn_all, firstn_app, firstn_all, Nat.sub_diag. cbn [skipn firstn app].
      rewrite app_nil_r, list_bid_eqb_refl. apply Hev. exact Hx0.
Qed.

End JoinP.

(* C12, joiner clause: it holds for every schedule when the subscribers that join are subscribed by
   the thread that calls next (so that `next` and `subscribe` never overlap), the other threads only
   subscribe plainly / unsubscribe / peek, and nobody calls the inner subject's plain next *)
Theorem il_joiner_with_producer v0 setup scripts sched :
  names_ok setup scripts = true -> setup_completes v0 setup = true -> joiners_with_producer scripts = true ->
  let '(tr, e, fin) := run_case v0 setup scripts sched in joiner_ok v0 setup scripts tr e = true.
Proof.
  intros Hn Hc Hj. apply run_case_irun. intros s ths tr Er.
  apply when_finished. intros Ef%finished_end k0 Hk0 Eh.
  apply forallb_forall. intros ev Hev. destruct ev as [ | k [x0|e] t j | | | | ]; try reflexivity.
  destruct (is_initial scripts (t, j)) eqn:Ei; [|reflexivity].
  destruct (imem k (unsubscribed_in (concat scripts))) eqn:Eu; [reflexivity|]. cbn [negb andb].
  apply imem_false in Eu.
  unfold joiners_with_producer in Hj. apply andb_true_iff in Hj. destruct Hj as [Hj1 Hj2].
  destruct (at_most_one_ex _ _ Hj1) as (p & Hp).
  assert (Hnn : forall sc x, In sc scripts -> In x sc -> not_plain_next x = true).
  { intros sc x Hsc Hx. rewrite forallb_forall in Hj2. specialize (Hj2 sc Hsc).
    rewrite forallb_forall in Hj2. apply Hj2. exact Hx. }
  set (SV := setup_value v0 setup).
  set (s0 := run_alone 1000 (ish0 v0) (start_thread setup)) in *.
  assert (HI0 : JoinerInv scripts SV p k0 k [] s0 (map start_thread scripts)).
  { split; [|left; reflexivity].
    split; [apply LosslessInv_init; auto|]. split; [|split; [|split; [|intros _; reflexivity]]].
    - intros i th Hi Hne. apply nth_map_start in Hi. destruct Hi as (sc & Hsc & ->).
      split; [reflexivity|]. cbn. specialize (Hp _ _ Hsc Hne). apply negb_false_iff in Hp.
      rewrite forallb_forall in Hp. exact Hp.
    - apply ops_all_start. intros i sc x Hsc Hin ->.
      apply Eu. apply unsub_in. apply in_concat. exists sc. split; [eapply nth_error_In; eauto|exact Hin].
    - intros th Hth. apply nth_map_start in Hth. destruct Hth as (sc & Hsc & ->). split; [discriminate|].
      apply RelP_intro.
      + intros v r Hr. cbn in Hr. subst sc.
        pose proof (Hnn _ (INext v) (nth_error_In _ _ Hsc) (or_introl eq_refl)) as H. discriminate H.
      + change (Z.eqb (s_val s0) SV = true). unfold s0. rewrite (val_after_setup _ _ Hc). apply Z.eqb_refl. }
  destruct (irun_trace _ (JoinerInv_step scripts SV p k0 k Hnn) sched [] _ _ _ _ _ HI0 Er) as [_ HP].
  assert (Hx0 : In x0 (flat_map (jev scripts k) tr)).
  { apply in_flat_map. exists (TEv k (YItem x0) t j). split; [exact Hev|]. cbn. rewrite Ei, Nat.eqb_refl.
    left. reflexivity. }
  rewrite bids_of_L, order_L. exact (joiner_end scripts SV p k _ _ _ _ _ HP Ef Hx0).
Qed.

(* the hypothesis of il_joiner_with_producer is needed: the schedule of Props/C12.v (the subscriber
   joins from another thread, between the store and the broadcast of a next) *)
Example joiner_needs_same_thread :
  (let '(tr, e, fin) := run_case 0%Z [IBSub 0] [[IBNext 1%Z]; [IBSub 1]]
                                 ([1; 1; 0; 0; 0; 0; 0; 0; 0] ++ flat_map (fun _ => [0; 1]) (seq 0 20)) in
   (names_ok [IBSub 0] [[IBNext 1%Z]; [IBSub 1]], setup_completes 0%Z [IBSub 0],
    joiners_with_producer [[IBNext 1%Z]; [IBSub 1]], e, joiner_ok 0%Z [IBSub 0] [[IBNext 1%Z]; [IBSub 1]] tr e))
  = (true, true, false, EFinished, false).
Proof. vm_compute. reflexivity. Qed.

(* ... and a plain next of the inner subject in the producer's own script breaks it too *)
Example joiner_needs_no_plain_next :
  (let '(tr, e, fin) := run_case 0%Z [IBSub 0] [[INext 1%Z; IBSub 5]] (repeat 0 50) in
   (names_ok [IBSub 0] [[INext 1%Z; IBSub 5]], setup_completes 0%Z [IBSub 0],
    joiners_with_producer [[INext 1%Z; IBSub 5]], e, joiner_ok 0%Z [IBSub 0] [[INext 1%Z; IBSub 5]] tr e))
  = (true, true, false, EFinished, false).
Proof. vm_compute. reflexivity. Qed.

(* a non-trivial case that satisfies the hypotheses: the producer thread calls next four times and
   subscribes four joiners in between (one of them before its first next, one unsubscribed again),
   two other threads subscribe / peek / unsubscribe concurrently (also a full-time probe and one of
   the joiners) *)
Definition jp_setup : list iop := [IBSub 0; IBNext 3%Z; ISub 4].
Definition jp_scripts : list (list iop) :=
  [[IBSub 9; IBNext 1%Z; IBSub 5; ISub 10; IBNext 2%Z; IBSub 6; IUnsub 6; IBNext 7%Z; IBSub 7; IBNext 8%Z];
   [ISub 1; IBPeek; IUnsub 1; ISub 2; IUnsub 4];
   [ISub 8; IBPeek; IUnsub 8; IUnsub 5; IUnsub 10]].
Definition jp_sched : list nat :=
  [0;1;2;0;1;2;2;0;0;1;1;2;0;1;0;2;0;0;0;1;1;1;2;2;2;0;0;0;0;2;0;0;1;0;0;0] ++ concat (repeat [0;0;0;1;2] 60).

Example joiner_producer_hyps_satisfiable :
  (let '(tr, e, fin) := run_case 0%Z jp_setup jp_scripts jp_sched in
   (names_ok jp_setup jp_scripts, setup_completes 0%Z jp_setup, joiners_with_producer jp_scripts,
    single_producer jp_setup jp_scripts, full_time jp_setup jp_scripts, e, order jp_scripts tr,
    (bids_of jp_scripts tr 9, bids_of jp_scripts tr 7), fin,
    joiner_ok 0%Z jp_setup jp_scripts tr e, latest_ok 0%Z jp_setup jp_scripts tr e fin))
  = (true, true, true, true, [0], EFinished, [(0, 1); (0, 4); (0, 7); (0, 9)],
     ([(0, 1); (0, 4); (0, 7); (0, 9)], [(0, 9)]), 8%Z, true, true).
Proof. vm_compute. reflexivity. Qed.

Print Assumptions il_latest_single_producer.
Print Assumptions il_final_value_single_producer.
Print Assumptions il_joiner_no_next.
Print Assumptions il_joiner_with_producer.
