(* C14: conversions report the real outcome and never stay pending once the source has terminated. *)
From RxModel Require Import Convert.
Local Open Scope nat_scope.

Definition is_poll (l : flabel) : bool := match l with FPoll => true | _ => false end.
(* the source's calls among the labels, and the number of polls *)
Definition fevents (ls : list flabel) : list ev := flat_map (fun l => match l with FEv e => [e] | FPoll => [] end) ls.
Definition npolls (ls : list flabel) : nat := length (filter is_poll ls).

Definition last_of (items : list val) : option fmsg :=
  match items with [] => None | [v] => Some (MOk v) | _ => Some MMultiple end.

Lemma record_last items v : record (last_of items) (MOk v) = last_of (items ++ [v]).
Proof. destruct items as [|a [|b r]]; cbn; try reflexivity. Qed.

Lemma future_items_only pinned : forall ls items0 items1 rest,
  fevents ls = map Next items1 ->
  frun_ pinned {| f_last := last_of items0; f_obs := true; f_queue := []; f_open := true |} (ls ++ rest) =
  repeat FPending (npolls ls) ++
  frun_ pinned {| f_last := last_of (items0 ++ items1); f_obs := true; f_queue := []; f_open := true |} rest.
Proof.
  induction ls as [|l r IH]; intros items0 items1 rest E.
  - destruct items1; [|discriminate]. rewrite app_nil_r. reflexivity.
  - destruct l as [e|]; cbn [fevents flat_map app] in E.
    + destruct items1 as [|v items1]; [discriminate|]. injection E as -> E.
      cbn [app frun_ fstep f_obs f_last f_queue f_open]. rewrite record_last, (IH _ _ rest E), <- app_assoc. reflexivity.
    + cbn [app frun_ fstep f_queue npolls filter is_poll length repeat]. rewrite (IH _ _ rest E). reflexivity.
Qed.

Definition term_ev (t : term) : list ev := term_evs t.

(* The outcome, and readiness: items interleaved with polls in any way, then the terminal: every
   poll before it is pending, the first poll after it is ready with the documented outcome. *)
Theorem future_outcome ls items t later :
  forallb (fun l => match l with FEv (Next _) | FPoll => true | _ => false end) ls = true ->
  fevents ls = map Next items -> t <> TNone ->
  run_future false (ls ++ map FEv (term_evs t) ++ FPoll :: later) =
  repeat FPending (npolls ls) ++
  match outcome items t with Some m => [FReady m] | None => [] end ++ frun_ false {| f_last := None; f_obs := false; f_queue := []; f_open := false |} later.
Proof.
  intros _ E Ht. unfold run_future. change fut0 with {| f_last := last_of []; f_obs := true; f_queue := []; f_open := true |}.
  rewrite (future_items_only false ls [] items _ E). f_equal. cbn [app].
  destruct t as [| |e]; [contradiction| |]; destruct items as [|a [|b r]]; reflexivity.
Qed.

(* the pinned code never resolved a failed source *)
Theorem future_error_refuted : run_future true [FEv (Err 7); FPoll; FPoll] = [FPending; FPending].
Proof. reflexivity. Qed.

(* the channel messages the stream's observer sends for a source history (an error is followed by the end marker) *)
Definition smsgs (s : list ev) : list smsg :=
  flat_map (fun e => match e with Next v => [SItem v] | Err x => [SErrItem x; SEnd] | Done => [SEnd] end) s.

(* what n polls of a stream with queue q and no further sends return: the queue in order, up to the end marker, then Pending *)
Fixpoint polls_on (q : list smsg) (n : nat) {struct n} : list sres :=
  match n with
  | O => []
  | S n' => match q with
            | SEnd :: _ => SReady SEnd :: repeat SPending n'
            | m :: r => SReady m :: polls_on r n'
            | [] => repeat SPending n
            end
  end.

Lemma stream_polls : forall n q obs, srun_ false {| s_obs := obs; s_queue := q; s_ended := false |} (repeat FPoll n) = polls_on q n.
Proof.
  induction n as [|n IH]; intros q obs; [reflexivity|]. cbn [repeat srun_ sstep_ s_ended s_queue polls_on].
  destruct q as [|m r].
  - cbn [app]. f_equal. specialize (IH [] obs). cbn in IH. destruct n; [reflexivity|]. cbn [polls_on] in IH. exact IH.
  - destruct m; cbn [app]; try (f_equal; apply IH).
    f_equal. clear. induction n as [|n IH]; [reflexivity|]. cbn. f_equal. exact IH.
Qed.

Lemma stream_events : forall s q rest,
  wf s = true ->
  exists obs', srun_ false {| s_obs := true; s_queue := q; s_ended := false |} (map FEv s ++ rest) =
               srun_ false {| s_obs := obs'; s_queue := q ++ smsgs s; s_ended := false |} rest.
Proof.
  induction s as [|e r IH]; intros q rest W.
  - exists true. cbn. rewrite app_nil_r. reflexivity.
  - destruct e as [v|x|]; cbn [map app srun_ sstep_ s_obs s_queue s_ended smsgs flat_map].
    + destruct (IH (q ++ [SItem v]) rest W) as [o' E]. exists o'. rewrite E, <- app_assoc. reflexivity.
    + destruct r; [|discriminate]. exists false. reflexivity.
    + destruct r; [|discriminate]. exists false. reflexivity.
Qed.

(* a well-formed source history, then n polls: every item, the error, the end, in order, then pending *)
Theorem stream_yields_everything s n : wf s = true -> run_stream false (map FEv s ++ repeat FPoll n) = polls_on (smsgs s) n.
Proof.
  intros W. unfold run_stream, strm0. destruct (stream_events s [] (repeat FPoll n) W) as [o' E].
  rewrite E. apply stream_polls.
Qed.

(* in particular the stream ends after an error (it stayed pending in the pinned code) *)
Theorem stream_error_refuted :
  run_stream true [FEv (Next (VZ 1)); FEv (Err 7); FPoll; FPoll; FPoll] = [SReady (SItem (VZ 1)); SReady (SErrItem 7); SPending] /\
  run_stream false [FEv (Next (VZ 1)); FEv (Err 7); FPoll; FPoll; FPoll] = [SReady (SItem (VZ 1)); SReady (SErrItem 7); SReady SEnd].
Proof. split; reflexivity. Qed.

(* all interleavings of a and b; fuel at least |a| + |b| *)
Fixpoint interleave {A} (a b : list A) (fuel : nat) : list (list A) :=
  match fuel with
  | O => []
  | S f =>
      match a, b with
      | [], _ => [b]
      | _, [] => [a]
      | x :: a', y :: b' => map (cons x) (interleave a' b f) ++ map (cons y) (interleave a b' f)
      end
  end.

(* complete_status: the steps of the observer's terminal call, and of one poll of the status future *)
Definition producer (err : bool) : list wstep := [PStore err; PWake].
Definition waiter : list wstep := [WCheck; WRegister; WRecheck].

(* no lost wake-up, under every interleaving *)
Theorem no_lost_wakeup : forall err,
  forallb (fun xs => waiter_safe (wrun false xs)) (interleave (producer err) waiter 6) = true.
Proof. intros [|]; vm_compute; reflexivity. Qed.

Theorem interleavings_complete : length (interleave (producer true) waiter 6) = 10.
Proof. reflexivity. Qed.

Theorem lost_wakeup_refuted :
  waiter_safe (wrun true [WCheck; PStore false; PWake; WRegister]) = false.
Proof. reflexivity. Qed.

Definition is_store (x : wstep) : bool := match x with PStore _ => true | _ => false end.

Lemma wstep_flag pinned s x :
  w_flag (wstep_ pinned s x) = match x with PStore err => if err then (-1)%Z else 1%Z | _ => w_flag s end.
Proof.
  destruct x; cbn [wstep_]; [reflexivity|destruct (w_registered s)|destruct (w_pc s =? 0)|destruct (w_pc s =? 1)|destruct (w_pc s =? 2)];
    reflexivity.
Qed.

Lemma status_flag_gen pinned : forall xs s,
  (w_flag (fold_left (wstep_ pinned) xs s) =? 0)%Z = (w_flag s =? 0)%Z && negb (existsb is_store xs).
Proof.
  induction xs as [|x r IH]; intros s; cbn [fold_left existsb]; [rewrite Bool.andb_true_r; reflexivity|].
  rewrite IH, wstep_flag. destruct x as [[|]| | | |]; cbn [is_store orb negb]; rewrite ?Bool.andb_false_r; reflexivity.
Qed.

(* the flag says closed exactly when the producer has stored *)
Theorem status_flag xs pinned : (w_flag (wrun pinned xs) =? 0)%Z = negb (existsb is_store xs).
Proof. unfold wrun. rewrite status_flag_gen. reflexivity. Qed.
