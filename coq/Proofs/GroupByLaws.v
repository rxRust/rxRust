(* What the subscribers of group_by see, as projections of one run: the groups announced, each group's
   items and terminal, all items in source order, the outer terminal, and announcement before delivery. *)
From RxSpec Require Import GroupBySpec.
From RxProofs Require Import ValEq.

Lemma mem_app v a b : mem v (a ++ b) = mem v a || mem v b.
Proof. apply existsb_app. Qed.

Lemma mem_cons v a l : mem v (a :: l) = val_eqb v a || mem v l.
Proof. reflexivity. Qed.

Lemma NoDup_snoc {A} (l : list A) x : NoDup l -> ~ In x l -> NoDup (l ++ [x]).
Proof.
  intros Hl Hx. rewrite <- (rev_involutive l). change (NoDup (rev (x :: rev l))).
  apply NoDup_rev. constructor; [rewrite <- in_rev; exact Hx|apply NoDup_rev, Hl].
Qed.

Section G.
  Variable key : val -> val.

  Lemma grun_cons subjects v r t :
    grun key subjects (mk (v :: r) t) =
    if mem (key v) subjects then GItem (key v) v :: grun key subjects (mk r t)
    else Announce (key v) :: GItem (key v) v :: grun key (subjects ++ [key v]) (mk r t).
  Proof. cbn. destruct (mem (key v) subjects); reflexivity. Qed.

  (* a projection that ignores the groups' terminals skips them in the terminal block *)
  Lemma flat_map_terms {B} (f : gev -> list B) e subjects rest :
    (forall k, f (GTerm k e) = []) ->
    flat_map f (map (fun k => GTerm k e) subjects ++ rest) = flat_map f rest.
  Proof. intros H. induction subjects as [|k l IH]; cbn; [reflexivity|]. rewrite H. exact IH. Qed.

  (* one group announced per distinct key, in order of first appearance; the machine appends a new
     key where the list function conses it: only membership matters *)
  Lemma announced_gen seen subjects items t :
    (forall x, mem x seen = mem x subjects) ->
    announced (grun key subjects (mk items t)) = first_keys key seen items.
  Proof.
    revert seen subjects. induction items as [|v r IH]; intros seen subjects H.
    - destruct t; cbn; rewrite ?app_nil_r, ?flat_map_terms by reflexivity; reflexivity.
    - rewrite grun_cons. cbn [first_keys]. rewrite H. destruct (mem (key v) subjects); cbn; [apply IH, H|].
      f_equal. apply IH. intros x. rewrite mem_app, !mem_cons, H. cbn. rewrite Bool.orb_false_r. apply Bool.orb_comm.
  Qed.

  (* every item is delivered exactly once, in source order: flattening the groups gives the source *)
  Lemma flattened_gen subjects items t :
    flattened (grun key subjects (mk items t)) = items.
  Proof.
    revert subjects. induction items as [|v r IH]; intros subjects.
    - destruct t; cbn; rewrite ?app_nil_r, ?flat_map_terms by reflexivity; reflexivity.
    - rewrite grun_cons. destruct (mem (key v) subjects); cbn; f_equal; apply IH.
  Qed.

  Lemma outer_term_gen subjects items t :
    outer_term (grun key subjects (mk items t)) = term_evs t.
  Proof.
    revert subjects. induction items as [|v r IH]; intros subjects.
    - destruct t; cbn; rewrite ?app_nil_r, ?flat_map_terms by reflexivity; reflexivity.
    - rewrite grun_cons. destruct (mem (key v) subjects); cbn; apply IH.
  Qed.

  (* subjects holds each key once (NoDup): the group of key k gets the terminal once *)
  Lemma group_trace_terms k subjects e :
    NoDup subjects ->
    group_trace k (map (fun k' => GTerm k' e) subjects ++ [OuterTerm e]) = if mem k subjects then [e] else [].
  Proof.
    induction 1 as [|x l Hx Hl IH]; [reflexivity|]. cbn [map app group_trace flat_map].
    fold (group_trace k (map (fun k' => GTerm k' e) l ++ [OuterTerm e])). rewrite IH, mem_cons, (val_eqb_sym k x).
    destruct (val_eqb_spec x k) as [->|Hn]; [|reflexivity].
    destruct (mem k l) eqn:E; [|reflexivity]. apply mem_In in E. contradiction.
  Qed.

  (* the group of key k gets exactly the items of its key, in order, then the terminal once *)
  Lemma group_trace_gen k subjects items t :
    NoDup subjects ->
    group_trace k (grun key subjects (mk items t)) =
    map Next (filter (fun v => val_eqb (key v) k) items) ++
    (if mem k (subjects ++ map key items) then term_evs t else []).
  Proof.
    revert subjects. induction items as [|v r IH]; intros subjects ND.
    - cbn [filter map app]. rewrite app_nil_r.
      destruct t; cbn [mk map app term_evs grun gstep is_term]; rewrite ?app_nil_r, ?group_trace_terms by exact ND;
        [destruct (mem k subjects)|..]; reflexivity.
    - rewrite grun_cons. cbn [filter map]. destruct (mem (key v) subjects) eqn:E.
      + cbn [group_trace flat_map]. fold (group_trace k (grun key subjects (mk r t))).
        rewrite IH by exact ND. rewrite !mem_app. cbn [map]. rewrite mem_cons, (val_eqb_sym k).
        destruct (val_eqb_spec (key v) k) as [<-|N]; [rewrite E|]; reflexivity.
      + cbn [app group_trace flat_map]. fold (group_trace k (grun key (subjects ++ [key v]) (mk r t))).
        rewrite IH by (apply NoDup_snoc; [exact ND|]; intros Hin; apply mem_In in Hin; congruence).
        rewrite <- app_assoc. cbn [app map]. destruct (val_eqb (key v) k); reflexivity.
  Qed.

  Lemma announced_first_terms seen subjects e :
    incl subjects seen ->
    announced_first seen (map (fun k => GTerm k e) subjects ++ [OuterTerm e]) = true.
  Proof.
    induction subjects as [|k l IH]; intros H; [reflexivity|]. apply incl_cons_inv in H.
    cbn [map app announced_first]. rewrite (proj2 (mem_In k seen) (proj1 H)). exact (IH (proj2 H)).
  Qed.

  (* a group is announced before anything is delivered through it *)
  Lemma announced_first_gen seen subjects items t :
    incl subjects seen -> announced_first seen (grun key subjects (mk items t)) = true.
  Proof.
    revert seen subjects. induction items as [|v r IH]; intros seen subjects H.
    - destruct t; cbn [mk map app term_evs grun gstep is_term]; rewrite ?app_nil_r;
        [reflexivity|apply announced_first_terms, H..].
    - rewrite grun_cons. destruct (mem (key v) subjects) eqn:E; cbn [announced_first].
      + rewrite (proj2 (mem_In _ seen)) by (apply H, mem_In, E). apply IH, H.
      + rewrite mem_cons, val_eqb_refl. apply IH, incl_app; [apply incl_tl, H|].
        intros x [<-|[]]. left. reflexivity.
  Qed.
End G.

Theorem group_by_announces key items t :
  announced (run_group_by key (mk items t)) = first_keys key [] items.
Proof. apply announced_gen. reflexivity. Qed.

Theorem group_by_group_trace key k items t :
  group_trace k (run_group_by key (mk items t)) =
  map Next (filter (fun v => val_eqb (key v) k) items) ++
  (if mem k (map key items) then term_evs t else []).
Proof. unfold run_group_by. rewrite group_trace_gen by constructor. reflexivity. Qed.

Theorem group_by_flatten key items t : flattened (run_group_by key (mk items t)) = items.
Proof. apply flattened_gen. Qed.

Theorem group_by_outer_term key items t : outer_term (run_group_by key (mk items t)) = term_evs t.
Proof. apply outer_term_gen. Qed.

Theorem group_by_announced_first key items t :
  announced_first [] (run_group_by key (mk items t)) = true.
Proof. apply announced_first_gen, incl_nil_l. Qed.

