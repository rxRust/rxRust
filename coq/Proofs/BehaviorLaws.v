(* The behavior subject (a subject plus a value cell) refines the abstract multicast set with its most
   recent value, and that value is the last one passed to next / next_by. *)
From RxSpec Require Import BehaviorSpec.
From RxProofs Require Import SubjectLaws.

Local Open Scope nat_scope.

(* histories in which len() / is_empty() are asked only after a terminal or unsubscribe,
   as size_ok on the subject operations they contain *)
Definition bsize_ok (cl : bool) (h : list bop) : bool := size_ok cl (sops_of h).

Lemma size_ok_app cl a b :
  size_ok cl (a ++ b) = true -> size_ok cl a = true.
Proof. rewrite size_ok_app_eq. intros H. apply andb_prop in H. apply H. Qed.

Theorem behavior_refines_from b cl h :
  WF (inner b) -> (cl = true -> observers (inner b) = None) -> bsize_ok cl h = true ->
  brun b h = abrun (absf (inner b), value b) h.
Proof.
  revert b cl. induction h as [|op r IH]; intros b cl W Hcl Hs; [reflexivity|].
  unfold bsize_ok in *.
  assert (Sub : forall op', size_ok cl (op' :: sops_of r) = true ->
                brun b (BSub op' :: r) = abrun (absf (inner b), value b) (BSub op' :: r)).
  { intros op' Hs'. rewrite size_ok_cons in Hs'. apply andb_prop in Hs'. destruct Hs' as [Hs1 Hs2].
    pose proof (refines_any (inner b) op' cl W Hcl Hs1) as [W' E].
    pose proof (cl_after_sound (inner b) op' cl Hcl) as Hcl'.
    cbn [brun abrun]. destruct op'; cbn [bstep abstep];
      try (rewrite E; destruct (sstep (inner b) _) as [s' out]; cbn [fst snd] in *; f_equal;
           apply (IH {| inner := s'; value := _ |} _ W' Hcl' Hs2)).
    (* left: subscribe, where both sides hand the stored value to the new subscriber *)
    cbn [sstep] in E, W', Hcl'. cbn [astep] in E |- *. pose proof (subscribe_id (inner b)) as Hid.
    destruct (subscribe (inner b)) as [s' id]. cbn [fst snd] in *. subst id.
    rewrite E. cbn [map app fresh absf]. do 2 f_equal.
    apply (IH {| inner := s'; value := value b |} _ W' Hcl' Hs2). }
  destruct op as [op'|f|].
  - apply Sub, Hs.
  - (* next_by f steps as next (f value) does, on both sides; Hs speaks of the `OpNext VU` that sops_of
       puts for it, which converts because size_ok does not look at the item *)
    apply (Sub (OpNext (f (value b)))), Hs.
  - cbn [brun abrun bstep abstep app]. f_equal. apply (IH b cl W Hcl Hs).
Qed.

Theorem behavior_refines init h :
  bsize_ok false h = true -> brun (bsubj0 init) h = abrun (asub0, init) h.
Proof.
  intros H. change asub0 with (absf (inner (bsubj0 init))).
  apply (behavior_refines_from (bsubj0 init) false h WF0); [discriminate|exact H].
Qed.

Lemma abstep_value a cur op : snd (fst (abstep (a, cur) op)) = latest cur [op].
Proof.
  destruct op as [op'|f|]; [destruct op'|..]; cbn [abstep latest];
    try (destruct (astep a _) as [a' out]; reflexivity); reflexivity.
Qed.

Lemma latest_cons cur op r : latest cur (op :: r) = latest (latest cur [op]) r.
Proof. destruct op as [[]|f|]; reflexivity. Qed.

(* state and stored value of the abstract machine after a history *)
Fixpoint abfinal (st : asub * val) (h : list bop) : asub * val :=
  match h with
  | [] => st
  | op :: r => abfinal (fst (abstep st op)) r
  end.

(* After any history the stored value is the most recent one passed to next / next_by
   through any handle (or the initial value). *)
Theorem behavior_latest a cur h : snd (abfinal (a, cur) h) = latest cur h.
Proof.
  revert a cur. induction h as [|op r IH]; intros a cur; [reflexivity|].
  cbn [abfinal]. rewrite latest_cons, <- (abstep_value a cur op).
  destruct (abstep (a, cur) op) as [[a' cur'] out]. apply IH.
Qed.

(* ... and it is what a new subscriber is handed first, what peek returns, and what
   next_by applies its function to. *)
Theorem behavior_hands_latest a cur :
  snd (abstep (a, cur) (BSub OpSubscribe)) =
    [BO (Subscribed (fresh a)); BO (Deliver (fresh a) (Next cur))] /\
  snd (abstep (a, cur) BPeek) = [BPeeked cur] /\
  forall f, snd (abstep (a, cur) (BNextBy f)) = snd (abstep (a, cur) (BSub (OpNext (f cur)))).
Proof.
  split; [|split; reflexivity].
  cbn [abstep astep]. destruct (torn a); [reflexivity|]. destruct (closed a); reflexivity.
Qed.
