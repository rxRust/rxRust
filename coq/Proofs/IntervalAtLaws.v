(* interval and interval_at under an executor that runs as the timers fall due: the run is exactly the
   trace that Spec/TimedSpec.prompt_case lists; for interval_at the first tick comes at the given instant
   (at the first poll when the instant has been reached already), each later one exactly one period
   after the previous one. *)
From RxModel Require Import Timed.
From RxSpec Require Import TimedSpec.
From RxProofs Require Import TimedLaws.
Open Scope N_scope.

(* the first poll of a delayed task creates its timer *)
Lemma first_poll o s tk j d :
  tasks s = [tk] -> jobs s = [j] -> t_keep tk = true -> t_stage tk = StDelay d -> 0 < d ->
  tstep o s (LRun 0) = (upd_tasks s [with_stage tk (StWait (now s + d))], []).
Proof.
  intros Ht Hj Hk Hs Hd. cbn [tstep]. rewrite Ht, Hj. cbn [nth_error]. unfold poll. rewrite Hs, Hk. cbn [negb].
  rewrite (proj2 (N.ltb_lt (now s) (now s + d))) by lia. reflexivity.
Qed.

(* for any period: `0 < p` in the three theorems below is not used *)
Lemma prompt_case_run o n ls out : prompt_case o n = Some (ls, out) -> run_timed o ls = out.
Proof.
  intros H. destruct o as [| | | | | | | |p|dl p| |]; try discriminate H; cbn [prompt_case] in H; unfold run_timed.
  - (* interval p *)
    inversion H; subst ls out.
    apply (prompt_full_gen p _ n 0%nat (tinit (TInterval p)) 0%nat (spawn (repeat_new 0 0 p) None)); reflexivity.
  - (* interval_at dl p: the task starts behind the delay dl, its own first timer is due at once *)
    set (o := TIntervalAt dl p). set (tk := spawn (repeat_starting_now 0 p) (Some dl)).
    assert (Ht : tasks (tinit o) = [tk]) by reflexivity.
    destruct (N.eqb_spec dl 0) as [->|Hne]; inversion H; subst ls out; cbn [trun_sys].
    + destruct (tick o (tinit o) tk p 0 0 Ht) as (tk' & E & S' & K' & B'); try reflexivity.
      rewrite E. cbn [app]. do 2 f_equal. apply (prompt_full_gen p o n 1%nat (upd_tasks (tinit o) [tk']) _ tk'); auto.
    + rewrite (first_poll o (tinit o) tk JInterval dl Ht) by (reflexivity || lia). cbn [app trun_sys].
      set (s1 := upd_tasks (tinit o) [with_stage tk (StWait (now (tinit o) + dl))]).
      change (tstep o s1 (LAdv dl)) with (upd_now s1 (now s1 + dl), @nil tout). cbn [app].
      destruct (tick o (upd_now s1 (now s1 + dl)) _ p 0 0 eq_refl) as (tk' & E & S' & K' & B');
        try reflexivity; [apply N.le_0_l|cbn; rewrite N.ltb_irrefl; reflexivity|].
      rewrite E. cbn [app]. do 4 f_equal. apply (prompt_full_gen p o n 1%nat (upd_tasks (upd_now s1 (now s1 + dl)) [tk']) _ tk'); auto.
Qed.

Theorem prompt_case_exact o n ls out :
  prompt_case o n = Some (ls, out) ->
  match o with TInterval p | TIntervalAt _ p => 0 < p | _ => True end ->
  run_timed o ls = out.
Proof. intros H _. exact (prompt_case_run o n ls out H). Qed.

Theorem interval_at_prompt_now p n : 0 < p ->
  touts (run_timed (TIntervalAt 0 p) (LRun 0 :: prompt_rounds p n)) = TOut 0 (Next (VZ 0)) :: expected_ticks p 1 0 n.
Proof.
  intros _. rewrite prompt_rounds_labels, (prompt_case_run (TIntervalAt 0 p) n _ _ eq_refl).
  unfold touts. cbn [filter]. f_equal. apply touts_prompt_trace.
Qed.

Theorem interval_at_prompt dl p n : 0 < dl -> 0 < p ->
  touts (run_timed (TIntervalAt dl p) (LRun 0 :: LAdv dl :: LRun 0 :: prompt_rounds p n))
  = TOut dl (Next (VZ 0)) :: expected_ticks p 1 dl n.
Proof.
  intros Hd _.
  assert (E : prompt_case (TIntervalAt dl p) n =
              Some (LRun 0 :: LAdv dl :: LRun 0 :: prompt_labels p n,
                    TMark 0 :: TMark 1 :: TMark 2 :: TOut dl (Next (VZ 0)) :: prompt_trace p n 3 1 dl)).
  { cbn [prompt_case]. destruct (N.eqb_spec dl 0); [lia|reflexivity]. }
  rewrite prompt_rounds_labels, (prompt_case_run _ n _ _ E).
  unfold touts. cbn [filter]. f_equal. apply touts_prompt_trace.
Qed.
