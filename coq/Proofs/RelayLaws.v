(* C07: delay, observe_on, delay_subscription, subscribe_on satisfy their trace predicates for every
   label sequence; FIFO completeness; order.  Every predicate is a walk over the trace: a relation
   between the system and the walking state survives every label (label_sim). *)
From RxModel Require Import Timed.
From RxSpec Require Import TimedSpec.
From RxProofs Require Import ValEq SchedLaws TimedLaws CollectLaws.
Open Scope N_scope.

Lemma ev_eqb_refl e : ev_eqb e e = true.
Proof. destruct e as [v|x|]; cbn [ev_eqb]; [apply val_eqb_refl|apply Z.eqb_refl|reflexivity]. Qed.

Lemma ev_eqb_eq a b : ev_eqb a b = true -> a = b.
Proof.
  destruct a as [v|x|], b as [v'|x'|]; cbn [ev_eqb]; intros H; try discriminate.
  - apply val_eqb_eq in H. congruence.
  - apply Z.eqb_eq in H. congruence.
  - reflexivity.
Qed.

(* outputs that the operator predicates skip *)
Definition inert (out : list tout) : Prop :=
  forall x, In x out -> match x with TOut _ _ | TMark _ => False | _ => True end.

Lemma inert_nil : inert [].
Proof. intros x []. Qed.

Lemma inert_app a b : inert a -> inert b -> inert (a ++ b).
Proof. intros Ha Hb x Hx. apply in_app_or in Hx. destruct Hx as [Hx|Hx]; [apply Ha, Hx|apply Hb, Hx]. Qed.

Lemma walk_skip {St} (step : St -> tout -> option St) :
  (forall w x, match x with TOut _ _ | TMark _ => False | _ => True end -> step w x = Some w) ->
  forall out w, inert out -> walk step w out = Some w.
Proof.
  intros Hs. induction out as [|x r IH]; intros w H; [reflexivity|]. cbn [walk].
  rewrite (Hs w x (H x (or_introl eq_refl))). apply IH. intros y Hy. apply H. right. exact Hy.
Qed.

Definition quiet_label (l : tlab) : Prop :=
  match l with LSrc _ | LRun _ | LAdv _ | LUnsub => False | _ => True end.

Lemma tstep_quiet o s l : not_raw o -> quiet_label l ->
  inert (snd (tstep o s l)) /\ (fst (tstep o s l) = s \/ fst (tstep o s l) = upd_fin s).
Proof.
  intros Ho Hl. destruct l; try contradiction; try (rewrite tstep_raw_lab by auto; split; [apply inert_nil|left; reflexivity]).
  - split; [intros x [<-|[]]; exact I|left; reflexivity].
  - split; [apply inert_nil|right; reflexivity].
Qed.

Lemma quiet_sim {St} (step : St -> tout -> option St) (R : tsys -> St -> Prop) o s w l :
  not_raw o -> quiet_label l ->
  (forall w x, match x with TOut _ _ | TMark _ => False | _ => True end -> step w x = Some w) ->
  R s w -> R (upd_fin s) w ->
  exists w', walk step w (snd (tstep o s l)) = Some w' /\ R (fst (tstep o s l)) w'.
Proof.
  intros Ho Hl Hs R1 R2. destruct (tstep_quiet o s l Ho Hl) as [Hi [E|E]];
    exists w; rewrite E, (walk_skip step Hs _ w Hi); auto.
Qed.

(* a relation between the labels processed so far, the system and the walking state that every label
   preserves holds at the end of every run *)
Section LabelSim.
  Context {St : Type} (step : list tlab -> St -> tout -> option St) (label : St -> option tlab -> St)
          (o : top) (R : list tlab -> tsys -> St -> Prop).
  Hypothesis mark : forall ls done s w j, R done s w -> step ls w (TMark j) = Some (label w (nth_error ls j)).
  Hypothesis sim : forall ls done s w l, R done s w ->
    exists w', walk (step ls) (label w (Some l)) (snd (tstep o s l)) = Some w' /\ R (done ++ [l]) (fst (tstep o s l)) w'.

  Lemma label_sim ls w : R [] (tinit o) w -> exists w' s', walk (step ls) w (run_timed o ls) = Some w' /\ R ls s' w'.
  Proof.
    intros HR. refine (run_sim_gen step o (fun d _ => R d) _ ls [] [] (tinit o) w _ eq_refl HR).
    intros ls' d l r' _ s0 w0 -> H0. cbn [walk]. rewrite (mark _ d s0 w0 _ H0), nth_error_mid. apply (sim _ d s0 w0 l H0).
  Qed.
End LabelSim.

Lemma w_label_src_eq w e :
  w_label w (Some (LSrc e)) =
  {| w_now := w_now w; w_cur := Some (LSrc e);
     w_src := if negb (w_src_done w) && (w_subscribed w && negb (w_unsub w)) then w_src w ++ [(e, w_now w)] else w_src w;
     w_src_done := w_src_done w || is_term e; w_unsub := w_unsub w; w_finished := w_finished w;
     w_delivered := w_delivered w; w_subscribed := w_subscribed w |}.
Proof. cbn [w_label]. destruct (w_src_done w); reflexivity. Qed.


Definition job_of (e : ev) : job :=
  match e with Next v => JEmit v | Err x => JEmitErr x | Done => JComplete end.

(* does the notification get a task of its own?  (own_task in Spec/RelayComplete.v) *)
Definition keepb (de : bool) (e : ev) : bool :=
  negb (de && match e with Err _ => true | _ => false end).

Lemma keepb_false de e : keepb de e = false -> de = true /\ exists x, e = Err x.
Proof.
  unfold keepb. destruct de; cbn; [|discriminate]. destruct e as [v|x|]; cbn; try discriminate. intros _. split; [reflexivity|eauto].
Qed.

Lemma dead_cancel tk : dead (cancel tk).
Proof. right. reflexivity. Qed.

(* o is delay d (de: errors are forwarded directly) or observe_on (d = 0) *)
Definition relay_op (o : top) (d : N) (de : bool) : Prop :=
  match o with TDelay d' => d' = d /\ de = true | TObserveOn => d = 0 /\ de = false | _ => False end.

Definition relay_delay (o : top) : option N := match o with TDelay d => Some d | _ => None end.

Definition delay_is (d : N) (delay : option N) : Prop :=
  match delay with Some d' => d' = d | None => d = 0 end.

Lemma relay_op_delay o d de : relay_op o d de -> delay_is d (relay_delay o).
Proof. destruct o; cbn; try contradiction; intros [H _]; auto. Qed.

Lemma src_state s e : src_on s = true -> src_done s = false ->
  (if is_term e then upd_src s false true else s) = upd_src s (negb (is_term e)) (is_term e).
Proof. intros H1 H2. destruct s. cbn in *. subst. destruct (is_term e); reflexivity. Qed.

(* an accepted notification: its task is scheduled, the handle appended to the MultiSubscription l *)
Definition spawned (s : tsys) (e : ev) (delay : option N) (l : list nat) : tsys :=
  upd_multi (fst (schedule (upd_src s (negb (is_term e)) (is_term e)) BOnce (job_of e) delay)) (Some (l ++ [length (tasks s)])).

Lemma relay_accepts o d de s e l :
  relay_op o d de -> src_on s = true -> src_done s = false -> keepb de e = true -> multi s = Some l ->
  tstep o s (LSrc e) = (spawned s e (relay_delay o) l, []).
Proof.
  intros Ho Hon Hd Hk Hm. cbn [tstep]. rewrite Hd, Hon, (src_state s e Hon Hd).
  destruct o; try contradiction; destruct Ho as [_ ->];
    (destruct e as [v|x|]; try discriminate Hk; unfold spawned, append_multi;
     cbn [on_src relay_delay schedule fst snd multi upd_src job_of]; rewrite Hm; reflexivity).
Qed.

(* delay forwards an error at once *)
Lemma delay_forwards d s x : src_on s = true -> src_done s = false ->
  tstep (TDelay d) s (LSrc (Err x)) = slot_term (upd_src s false true) (Err x).
Proof. intros Hon Hd. cbn [tstep is_term]. rewrite Hd, Hon. reflexivity. Qed.

Lemma lrun_shape o s t tk k e :
  nth_error (tasks s) t = Some tk -> nth_error (jobs s) t = Some (job_of e) -> t_body tk = BOnce k ->
  tstep o s (LRun t) =
  let s1 := upd_tasks s (set_nth (tasks s) t (fst (poll (now s) tk))) in
  match snd (poll (now s) tk) with
  | PNone => (s1, [])
  | PRun _ _ _ => if alive s then (if is_term e then upd_alive s1 false else s1, [TOut (now s) e]) else (s1, [])
  end.
Proof.
  intros Ht Hj Hb. cbn [tstep]. rewrite Ht, Hj.
  pose proof (poll_once (now s) tk k Hb) as P. destruct (poll (now s) tk) as [tk1 res]. cbn [fst snd].
  destruct P as [(-> & _)|(-> & _)]; [reflexivity|].
  destruct e; cbn [job_of on_job is_term]; unfold slot_next, slot_term; cbn [alive upd_tasks now];
    destruct (alive s); reflexivity.
Qed.

(* unsubscribe: the input and every handle of the MultiSubscription; `i < length (jobs s)` because
   handles_eff knows a handle was reached only if it has a job *)
Lemma relay_unsub_effect o d de s : relay_op o d de ->
  exists s' out, tstep o s LUnsub = (s', out) /\ inert out /\
    now s' = now s /\ jobs s' = jobs s /\ alive s' = alive s /\ src_done s' = src_done s /\ src_on s' = false /\
    length (tasks s') = length (tasks s) /\
    forall i tk', nth_error (tasks s') i = Some tk' ->
      exists tk, nth_error (tasks s) i = Some tk /\ t_body tk' = t_body tk /\ (dead tk -> dead tk') /\
        (forall l, multi s = Some l -> In i l -> (i < length (jobs s))%nat -> dead tk').
Proof.
  intros Ho.
  assert (Hon : tstep o s LUnsub = unsub_relay o s) by (destruct o; try contradiction; reflexivity).
  rewrite Hon. unfold unsub_relay. cbn [upd_src multi]. clear Hon. destruct (multi s) as [l|].
  - set (s0 := upd_multi (upd_src s false (src_done s)) None).
    pose proof (unsub_handles_eff o l s0) as (E1 & E2 & E3 & E4 & E5).
    destruct (unsub_handles_upd o l s0) as (ts & on & inn & G).
    assert (In1 : inert (snd (unsub_handles o s0 l))) by (intros x Hx; destruct (unsub_handles_out o l s0 x Hx) as [i ->]; exact I).
    destruct (unsub_handles o s0 l) as [s' out]. cbn [fst snd] in *.
    exists s', out. repeat split; auto; try (rewrite G; reflexivity).
    + destruct E4 as [E4|E4]; rewrite E4; reflexivity.
    + intros i tk' Hi. destruct (E5 i tk' Hi) as (tk & Ht & Hs & Hc). exists tk. split; [exact Ht|].
      split; [destruct Hs as [->| ->]; reflexivity|]. split; [destruct Hs as [->| ->]; [auto|intros _; apply dead_cancel]|].
      intros l' Hl' Hin Hlt. inversion Hl'; subst l'. rewrite Hc; [apply dead_cancel|exact Hin|].
      apply nth_error_Some. exact Hlt.
  - eexists _, _. repeat split; try reflexivity; [apply inert_nil|].
    intros i tk Hi. exists tk. repeat split; auto. discriminate.
Qed.

(* a task that has not run: the i-th relayed notification, not to be delivered before arrival + d *)
Definition waiting (d : N) (de : bool) (s : tsys) (w : wstate) (i : nat) (tk : task) : Prop :=
  w_unsub w = false /\ (alive s = true -> memn' i (w_delivered w) = false) /\
  exists e arrived, nth_error (task_events de w) i = Some (e, arrived) /\ not_before (arrived + d) (now s) tk.

(* delay d / observe_on against the walking state of relay_ok: task i is the task of the i-th relayed
   notification, dead or waiting.  w_finished and w_delivered are tied down only while the slot is full:
   a directly forwarded error is recorded under index 0, task 0 or not. *)
Record RR (d : N) (de : bool) (s : tsys) (w : wstate) : Prop := {
  rr_now : w_now w = now s;
  rr_done : w_src_done w = src_done s;
  rr_sub : w_subscribed w = true;
  rr_on : src_on s = negb (src_done s) && negb (w_unsub w);
  rr_alive : alive s = true -> w_finished w = false;
  rr_jobs : jobs s = map (fun p => job_of (fst p)) (task_events de w);
  rr_len : length (tasks s) = length (task_events de w);
  rr_deliv : alive s = true -> forall i, memn' i (w_delivered w) = true -> (i < length (tasks s))%nat;
  rr_multi : w_unsub w = false -> exists l, multi s = Some l /\ forall i, (i < length (tasks s))%nat -> In i l;
  rr_tasks : forall i tk, nth_error (tasks s) i = Some tk ->
             (exists k, t_body tk = BOnce k) /\ (dead tk \/ waiting d de s w i tk)
}.
Arguments rr_now {d de s w}. Arguments rr_done {d de s w}. Arguments rr_sub {d de s w}. Arguments rr_on {d de s w}.
Arguments rr_alive {d de s w}. Arguments rr_jobs {d de s w}. Arguments rr_len {d de s w}. Arguments rr_deliv {d de s w}.
Arguments rr_multi {d de s w}. Arguments rr_tasks {d de s w}.

Lemma rr_unsub d de s w : RR d de s w -> src_done s = false -> w_unsub w = negb (src_on s).
Proof. intros R Hd. rewrite (rr_on R), Hd. destruct (w_unsub w); reflexivity. Qed.

Lemma waiting_mono d de s w s' w' i tk tk' :
  waiting d de s w i tk -> w_unsub w' = w_unsub w ->
  (forall x, nth_error (task_events de w) i = Some x -> nth_error (task_events de w') i = Some x) ->
  (alive s' = true -> alive s = true /\ memn' i (w_delivered w') = memn' i (w_delivered w)) ->
  (forall t0, not_before t0 (now s) tk -> not_before t0 (now s') tk') -> waiting d de s' w' i tk'.
Proof.
  intros (L1 & L2 & e & arr & L3 & L4) Hu Hev Ha Hnb. split; [congruence|]. split.
  - intros A. destruct (Ha A) as [A1 ->]. exact (L2 A1).
  - exists e, arr. split; [apply Hev, L3|apply Hnb, L4].
Qed.

Definition w_same (de : bool) (w w' : wstate) : Prop :=
  w_now w' = w_now w /\ task_events de w' = task_events de w /\ w_unsub w' = w_unsub w /\
  w_finished w' = w_finished w /\ w_delivered w' = w_delivered w /\ w_subscribed w' = w_subscribed w.

Lemma rr_frame d de s w s' w' :
  RR d de s w -> w_same de w w' ->
  now s' = now s -> tasks s' = tasks s -> jobs s' = jobs s -> alive s' = alive s -> multi s' = multi s ->
  w_src_done w' = src_done s' -> src_on s' = negb (src_done s') && negb (w_unsub w') ->
  RR d de s' w'.
Proof.
  intros [R1 R2 R3 R4 R5 R6 R7 R8 R9 R10] (W1 & W2 & W3 & W4 & W5 & W6) S1 S2 S3 S4 S5 S6 S7.
  constructor; try assumption; unfold waiting; rewrite ?S1, ?S2, ?S3, ?S4, ?S5, ?W1, ?W2, ?W3, ?W4, ?W5, ?W6; assumption.
Qed.

Lemma w_same_label de w l :
  match l with
  | LAdv _ | LUnsub => False
  | LSrc _ => w_src_done w = true \/ w_unsub w = true
  | _ => True
  end -> w_same de w (w_label w (Some l)).
Proof.
  destruct l; intros H; try contradiction; try (repeat split; fail).
  rewrite w_label_src_eq. unfold w_same, task_events. cbn [w_now w_src w_unsub w_finished w_delivered w_subscribed].
  destruct H as [-> | ->]; rewrite ?Bool.andb_false_r; repeat split.
Qed.

Lemma rr_label d de s w l :
  match l with LSrc _ | LAdv _ | LUnsub => False | _ => True end -> RR d de s w -> RR d de s (w_label w (Some l)).
Proof.
  intros Hl R. apply (rr_frame d de s w s _ R); auto.
  - apply w_same_label. destruct l; auto.
  - destruct l; try contradiction; apply (rr_done R).
  - rewrite (proj2 (w_label_now_unsub w l)). destruct l; try contradiction; apply (rr_on R).
Qed.

Lemma rr_set_task d de s w t tk tk1 :
  RR d de s w -> nth_error (tasks s) t = Some tk -> t_body tk1 = t_body tk ->
  (dead tk -> dead tk1) -> (forall t0, not_before t0 (now s) tk -> not_before t0 (now s) tk1) ->
  RR d de (upd_tasks s (set_nth (tasks s) t tk1)) w.
Proof.
  intros [R1 R2 R3 R4 R5 R6 R7 R8 R9 R10] Ht Hb Hd Hl.
  constructor; cbn [upd_tasks now tasks jobs src_done src_on alive multi]; rewrite ?set_nth_length; auto.
  intros i tk2 Hi. apply nth_error_set_nth in Hi. destruct Hi as [[-> ->]|[_ Hi]]; [|exact (R10 i tk2 Hi)]. rewrite Hb.
  destruct (R10 t tk Ht) as [B [D|L]]; (split; [exact B|]); [left; apply Hd, D|].
  right. apply (waiting_mono d de s w _ w t tk); auto.
Qed.

Lemma memn'_cons i t l : memn' i (t :: l) = Nat.eqb i t || memn' i l.
Proof. reflexivity. Qed.

Lemma rr_deliver_next d de s w t tk v :
  RR d de s w -> nth_error (tasks s) t = Some tk -> dead tk -> RR d de s (w_deliver w t (Next v)).
Proof.
  intros [R1 R2 R3 R4 R5 R6 R7 R8 R9 R10] Ht Hd.
  constructor; cbn [w_deliver w_now w_src_done w_subscribed w_unsub w_finished w_delivered is_term]; auto.
  - intros Ha. rewrite (R5 Ha). reflexivity.
  - intros Ha i. rewrite memn'_cons. intros Hm. apply Bool.orb_true_iff in Hm. destruct Hm as [Hm|Hm]; [|apply (R8 Ha i Hm)].
    apply Nat.eqb_eq in Hm. subst i. apply nth_error_Some. congruence.
  - intros i tk2 Hi. destruct (R10 i tk2 Hi) as [B [D|L]]; (split; [exact B|]); [left; exact D|].
    destruct (Nat.eq_dec i t) as [->|Hne]; [left; congruence|right].
    apply (waiting_mono d de s w s _ i tk2 tk2 L); auto.
    intros Ha. split; [exact Ha|]. cbn [w_deliver w_delivered]. rewrite memn'_cons.
    apply Nat.eqb_neq in Hne. rewrite Hne. reflexivity.
Qed.

Lemma rr_deliver_term d de s w idx e :
  RR d de s w -> RR d de (upd_alive s false) (w_deliver w idx e).
Proof.
  intros [R1 R2 R3 R4 R5 R6 R7 R8 R9 R10].
  constructor; cbn [upd_alive now tasks jobs src_done src_on alive multi
                    w_deliver w_now w_src_done w_subscribed w_unsub w_finished w_delivered]; auto; try discriminate.
  intros i tk2 Hi. destruct (R10 i tk2 Hi) as [B [D|L]]; (split; [exact B|]); [left; exact D|right].
  apply (waiting_mono d de s w _ _ i tk2 tk2 L); auto. discriminate.
Qed.

Lemma rr_adv d de s w dt : RR d de s w -> RR d de (upd_now s (now s + dt)) (w_label w (Some (LAdv dt))).
Proof.
  intros [R1 R2 R3 R4 R5 R6 R7 R8 R9 R10].
  constructor; cbn [upd_now now tasks jobs src_done src_on alive multi
                    w_label w_now w_src_done w_subscribed w_unsub w_finished w_delivered]; auto.
  - rewrite R1. reflexivity.
  - intros i tk Hi. destruct (R10 i tk Hi) as [B [D|L]]; (split; [exact B|]); [left; exact D|right].
    apply (waiting_mono d de s w _ _ i tk tk L); auto. intros t0. apply not_before_later.
Qed.

Lemma task_events_app de w w' e :
  w_src w' = w_src w ++ [(e, w_now w)] ->
  task_events de w' = task_events de w ++ (if keepb de e then [(e, w_now w)] else []).
Proof.
  intros H. unfold task_events. rewrite H, filter_app. cbn [filter fst]. unfold keepb. reflexivity.
Qed.

Lemma rr_spawn d de s w e delay l :
  RR d de s w -> src_on s = true -> src_done s = false -> keepb de e = true -> multi s = Some l -> delay_is d delay ->
  RR d de (spawned s e delay l) (w_label w (Some (LSrc e))).
Proof.
  intros R Hon Hdone Hk Hl Hdl. pose proof (rr_unsub d de s w R Hdone) as Hu. rewrite Hon in Hu. cbn [negb] in Hu.
  destruct R as [R1 R2 R3 R4 R5 R6 R7 R8 R9 R10]. destruct (R9 Hu) as (l0 & Hl0 & Hin). rewrite Hl in Hl0. inversion Hl0; subst l0.
  assert (TE : task_events de (w_label w (Some (LSrc e))) = task_events de w ++ [(e, w_now w)]).
  { rewrite (task_events_app de w _ e), Hk; [reflexivity|].
    rewrite w_label_src_eq. cbn [w_src]. rewrite R2, Hdone, R3, Hu. reflexivity. }
  rewrite w_label_src_eq in TE |- *. constructor; rewrite ?TE; unfold spawned;
    cbn [schedule fst upd_multi upd_src now tasks jobs src_done src_on alive multi
         w_now w_src_done w_subscribed w_unsub w_finished w_delivered]; auto.
  - rewrite R2, Hdone. reflexivity.
  - rewrite Hu. destruct (is_term e); reflexivity.
  - rewrite map_app, R6. reflexivity.
  - rewrite !app_length, R7. reflexivity.
  - rewrite app_length. intros Ha i Hm. pose proof (R8 Ha i Hm). lia.
  - intros _. eexists. split; [reflexivity|]. intros i Hi. rewrite app_length in Hi. cbn [length] in Hi.
    apply in_or_app. destruct (Nat.eq_dec i (length (tasks s))) as [->|Hne]; [right; left; reflexivity|left; apply Hin; lia].
  - intros i tk Hi. apply nth_error_snoc in Hi. destruct Hi as [[Hlt Hi]|[-> ->]].
    + destruct (R10 i tk Hi) as [B [D|L]]; (split; [exact B|]); [left; exact D|right].
      apply (waiting_mono d de s w _ _ i tk tk L); auto.
      intros x Hx. rewrite TE, nth_error_app1; [exact Hx|]. apply nth_error_Some. congruence.
    + split; [eexists; reflexivity|right]. unfold waiting. cbn [w_unsub w_delivered upd_multi alive now].
      split; [exact Hu|]. split.
      * intros Ha. destruct (memn' (length (tasks s)) (w_delivered w)) eqn:Em; [|reflexivity].
        pose proof (R8 Ha _ Em). lia.
      * exists e, (w_now w). split; [rewrite TE, R7; apply nth_error_app_last|].
        rewrite R1. unfold not_before, spawn. cbn [t_stage]. destruct delay as [d'|]; cbn in Hdl; lia.
Qed.

Lemma relay_out_run d de ls w t e arr at_time :
  w_finished w = false -> w_unsub w = false -> w_now w = at_time -> w_cur w = Some (LRun t) ->
  nth_error (task_events de w) t = Some (e, arr) -> arr + d <= at_time -> memn' t (w_delivered w) = false ->
  relay_step d de ls w (TOut at_time e) = Some (w_deliver w t e).
Proof.
  intros H1 H2 H3 H4 H5 H6 H7. unfold relay_step. rewrite H1, H2, H3, H4, H5, H7, N.eqb_refl, ev_eqb_refl.
  cbn [negb andb]. rewrite (proj2 (N.leb_le _ _) H6). reflexivity.
Qed.

Lemma relay_skip d de ls w x : match x with TOut _ _ | TMark _ => False | _ => True end -> relay_step d de ls w x = Some w.
Proof. destruct x; intros H; try contradiction; reflexivity. Qed.

(* deliveries leave the input log alone: this carries `logged` through relay_walks *)
Definition same_log (w w' : wstate) : Prop :=
  w_src w' = w_src w /\ w_src_done w' = w_src_done w /\ w_unsub w' = w_unsub w.

(* the `sim` hypothesis of Section LabelSim, for relay_step and RR *)
Definition sim_goal (o : top) (d : N) (de : bool) (ls : list tlab) (s : tsys) (w : wstate) (l : tlab) : Prop :=
  exists w', walk (relay_step d de ls) (w_label w (Some l)) (snd (tstep o s l)) = Some w' /\
             same_log (w_label w (Some l)) w' /\ RR d de (fst (tstep o s l)) w'.

Lemma sim_stay d de ls w out s' : inert out -> RR d de s' w ->
  exists w', walk (relay_step d de ls) w out = Some w' /\ same_log w w' /\ RR d de s' w'.
Proof. intros Hi R. exists w. rewrite (walk_skip _ (relay_skip d de ls) out w Hi). split; [reflexivity|]. split; [repeat split|exact R]. Qed.

Lemma sim_deliver d de ls w t e i s' : relay_step d de ls w (TOut t e) = Some (w_deliver w i e) -> RR d de s' (w_deliver w i e) ->
  exists w', walk (relay_step d de ls) w [TOut t e] = Some w' /\ same_log w w' /\ RR d de s' w'.
Proof. intros H R. eexists. cbn [walk]. rewrite H. split; [reflexivity|]. split; [repeat split|exact R]. Qed.

Lemma rr_job d de s w t tk : RR d de s w -> nth_error (tasks s) t = Some tk ->
  exists k e arr, t_body tk = BOnce k /\ nth_error (task_events de w) t = Some (e, arr) /\ nth_error (jobs s) t = Some (job_of e).
Proof.
  intros R Et. destruct (rr_tasks R t tk Et) as [(k & Hb) _].
  destruct (nth_error (task_events de w) t) as [[e arr]|] eqn:E.
  - exists k, e, arr. repeat split; auto. rewrite (rr_jobs R). exact (map_nth_error (fun p => job_of (fst p)) _ _ E).
  - apply nth_error_None in E. rewrite <- (rr_len R) in E. apply nth_error_None in E. congruence.
Qed.

Lemma relay_run o d de ls s w t : RR d de s w -> sim_goal o d de ls s w (LRun t).
Proof.
  intros R0. pose proof (rr_label d de s w (LRun t) I R0) as R. unfold sim_goal.
  set (w1 := w_label w (Some (LRun t))) in *. assert (Hcur : w_cur w1 = Some (LRun t)) by reflexivity. clearbody w1. clear R0.
  destruct (nth_error (tasks s) t) as [tk|] eqn:Et.
  2: { cbn [tstep]. rewrite Et. apply sim_stay; [apply inert_nil|exact R]. }
  destruct (rr_job d de s w1 t tk R Et) as (k & e & arr & Hb & Hev & Hj). destruct (rr_tasks R t tk Et) as [_ St].
  rewrite (lrun_shape o s t tk k e Et Hj Hb). cbn zeta.
  pose proof (poll_cases (now s) tk) as P. pose proof (poll_dead (now s) tk) as PD.
  destruct (poll (now s) tk) as [tk1 res]. cbn [fst snd] in *.
  (* poll_cases: body and lower bounds are kept *)
  destruct P as (Hb1 & _ & Hnb & P).
  set (s1 := upd_tasks s (set_nth (tasks s) t tk1)).
  assert (Et1 : nth_error (tasks s1) t = Some tk1) by apply (nth_error_set_nth_eq _ _ _ _ Et).
  assert (R1 : RR d de s1 w1) by (apply (rr_set_task d de s w1 t tk tk1 R Et Hb1); [intros D; apply (PD D)|exact Hnb]).
  destruct res as [|j sq rp]; [apply sim_stay; [apply inert_nil|exact R1]|].
  destruct (alive s) eqn:Ea; [|apply sim_stay; [apply inert_nil|exact R1]].
  (* the function runs: the task was kept (K), not finished (NF), every lower bound is reached (Hle),
     a one-shot task is finished afterwards (F1) *)
  destruct P as (K & NF & Hle & P). rewrite Hb in P. destruct P as (_ & _ & _ & F1 & _).
  destruct St as [[F|K']|(Hu & Hmem & e' & arr' & Hev' & Hnb0)]; [contradiction|congruence|].
  rewrite Hev in Hev'. inversion Hev'; subst e' arr'.
  assert (Hdue : arr + d <= now s) by exact (Hle _ Hnb0).
  apply (sim_deliver d de ls w1 (now s) e t).
  { apply (relay_out_run d de ls w1 t e arr); auto; [apply (rr_alive R Ea)|apply (rr_now R)]. }
  destruct e as [v|x|]; cbn [is_term].
  - apply (rr_deliver_next d de s1 w1 t tk1 v R1 Et1 (or_introl F1)).
  - apply (rr_deliver_term d de s1 w1 t (Err x) R1).
  - apply (rr_deliver_term d de s1 w1 t Done R1).
Qed.

Lemma relay_src o d de ls s w e : relay_op o d de -> RR d de s w -> sim_goal o d de ls s w (LSrc e).
Proof.
  intros Ho R. unfold sim_goal. set (w1 := w_label w (Some (LSrc e))).
  assert (Hdn : w_src_done w1 = src_done s || is_term e) by (unfold w1; rewrite w_label_src_eq, <- (rr_done R); reflexivity).
  assert (Hun : w_unsub w1 = w_unsub w) by apply (w_label_now_unsub w (LSrc e)).
  pose proof (rr_on R) as Hon. pose proof (rr_unsub d de s w R) as Hu.
  destruct (src_done s) eqn:Ed.
  - (* the input has terminated: nothing is delivered *)
    cbn [tstep]. rewrite Ed. apply sim_stay; [apply inert_nil|].
    apply (rr_frame d de s w s w1 R); auto; [|rewrite Hdn, Ed; reflexivity|rewrite Hun, Ed; exact Hon].
    apply w_same_label. left. rewrite (rr_done R). exact Ed.
  - specialize (Hu eq_refl). destruct (src_on s) eqn:Eo; cbn [negb] in Hu.
    + destruct (rr_multi R Hu) as (l & Hl & _). destruct (keepb de e) eqn:Ek.
      * rewrite (relay_accepts o d de s e l Ho Eo Ed Ek Hl). apply sim_stay; [apply inert_nil|].
        apply (rr_spawn d de s w e _ l R Eo Ed Ek Hl), (relay_op_delay o d de Ho).
      * (* delay forwards an error at once *)
        destruct (keepb_false de e Ek) as [-> [x ->]].
        destruct o; cbn [relay_op] in Ho; try contradiction; [|destruct Ho; discriminate]. destruct Ho as [-> _].
        rewrite (delay_forwards d s x Eo Ed).
        assert (R1 : RR d true (upd_src s false true) w1).
        { apply (rr_frame d true s w _ w1 R); auto.
          unfold w1. rewrite w_label_src_eq. unfold w_same, task_events. cbn [w_now w_src w_unsub w_finished w_delivered w_subscribed].
          rewrite (rr_done R), Ed, (rr_sub R), Hu. cbn [negb andb]. rewrite filter_app. cbn [filter fst negb andb].
          rewrite app_nil_r. repeat split. }
        unfold slot_term. cbn [upd_src alive now]. destruct (alive s) eqn:Ea; [|apply sim_stay; [apply inert_nil|exact R1]].
        assert (Hst : relay_step d true ls w1 (TOut (now s) (Err x)) = Some (w_deliver w1 0 (Err x))).
        { unfold relay_step, w1. rewrite w_label_src_eq. cbn [w_finished w_unsub w_now w_cur].
          rewrite (rr_alive R Ea), Hu, (rr_now R), N.eqb_refl, ev_eqb_refl. reflexivity. }
        apply (sim_deliver d true ls w1 _ _ 0%nat _ Hst), (rr_deliver_term d true _ w1 0 (Err x) R1).
    + (* unsubscribed: dropped *)
      cbn [tstep]. rewrite Ed, Eo. apply sim_stay; [apply inert_nil|].
      apply (rr_frame d de s w _ w1 R); try (destruct (is_term e); reflexivity).
      * apply w_same_label. right. exact Hu.
      * rewrite Hdn. destruct (is_term e); [reflexivity|symmetry; exact Ed].
      * rewrite Hun, Hu, Bool.andb_false_r. destruct (is_term e); [reflexivity|exact Eo].
Qed.

Lemma relay_unsub o d de ls s w : relay_op o d de -> RR d de s w -> sim_goal o d de ls s w LUnsub.
Proof.
  intros Ho [R1 R2 R3 R4 R5 R6 R7 R8 R9 R10]. unfold sim_goal.
  destruct (relay_unsub_effect o d de s Ho) as (s' & out & E & Hin & F1 & F2 & F3 & F4 & F5 & F6 & F7). rewrite E. cbn [fst snd].
  apply (sim_stay d de ls _ out s' Hin).
  constructor; change (task_events de (w_label w (Some LUnsub))) with (task_events de w);
    cbn [w_label w_now w_src_done w_subscribed w_unsub w_finished w_delivered]; try congruence.
  - rewrite F5, Bool.andb_false_r. reflexivity.
  - rewrite F3. exact R5.
  - rewrite F3, F6. exact R8.
  - intros i tk' Hi. destruct (F7 i tk' Hi) as (tk & Ht & Hb & Hd & Hc). rewrite Hb.
    destruct (R10 i tk Ht) as [B [D|(L1 & _)]]; (split; [exact B|left]); [exact (Hd D)|].
    destruct (R9 L1) as (l & Hl & Hall). apply (Hc l Hl).
    + apply Hall, nth_error_Some. congruence.
    + rewrite R6, map_length, <- R7. apply nth_error_Some. congruence.
Qed.

(* quiet_sim with same_log added to the conclusion *)
Lemma relay_quiet o d de ls s w l : relay_op o d de -> quiet_label l -> RR d de s w -> sim_goal o d de ls s w l.
Proof.
  intros Ho Hl R. assert (R1 : RR d de s (w_label w (Some l))) by (apply rr_label; [destruct l; auto|exact R]).
  unfold sim_goal. destruct (tstep_quiet o s l) as [Hi [E|E]]; [destruct o; try contradiction; exact I|exact Hl| |];
    rewrite E; apply sim_stay; auto.
  apply (rr_frame d de s _ _ _ R1); auto; [repeat split|apply (rr_done R1)|apply (rr_on R1)].
Qed.

Lemma rr_init o d de : relay_op o d de -> RR d de (tinit o) (w0 true).
Proof.
  intros Ho. destruct o; try contradiction;
    (constructor; cbn; auto; try discriminate;
     [intros _; eexists; split; [reflexivity|]; intros i Hi; lia|intros [|i] tk Hi; discriminate Hi]).
Qed.

Lemma relay_sim o d de ls s w l : relay_op o d de -> RR d de s w -> sim_goal o d de ls s w l.
Proof.
  intros Ho R. destruct l; try (apply relay_quiet; [exact Ho|exact I|exact R]).
  - apply relay_src; assumption.
  - apply relay_run; assumption.
  - apply sim_stay; [apply inert_nil|apply rr_adv, R].
  - apply relay_unsub; assumption.
Qed.

(* the input notifications that the operator accepts: those before the input terminates and
   before unsubscribe() *)
Fixpoint accepted_src (ls : list tlab) (done unsub : bool) : list ev :=
  match ls with
  | [] => []
  | LSrc e :: r =>
      if done then accepted_src r done unsub
      else (if unsub then [] else [e]) ++ accepted_src r (is_term e) unsub
  | LUnsub :: r => accepted_src r done true
  | _ :: r => accepted_src r done unsub
  end.

(* the walk's input log is what the processed labels let through *)
Definition logged (done : list tlab) (w : wstate) : Prop :=
  forall r, accepted_src (done ++ r) false false = map fst (w_src w) ++ accepted_src r (w_src_done w) (w_unsub w).

Lemma accepted_label w l r :
  w_subscribed w = true ->
  map fst (w_src (w_label w (Some l))) ++
    accepted_src r (w_src_done (w_label w (Some l))) (w_unsub (w_label w (Some l))) =
  map fst (w_src w) ++ accepted_src (l :: r) (w_src_done w) (w_unsub w).
Proof.
  intros Hs. destruct l; try reflexivity.
  rewrite w_label_src_eq. cbn [accepted_src w_src w_src_done w_unsub]. rewrite Hs.
  destruct (w_src_done w); [reflexivity|]. destruct (w_unsub w); cbn [negb andb orb app]; [reflexivity|].
  rewrite map_app, <- app_assoc. reflexivity.
Qed.

Lemma relay_step_out d de ls w at_time e w1 :
  relay_step d de ls w (TOut at_time e) = Some w1 ->
  exists idx, w1 = w_deliver w idx e /\
    forall t, w_cur w = Some (LRun t) -> idx = t /\ exists arr, nth_error (task_events de w) t = Some (e, arr).
Proof.
  cbn [relay_step]. destruct (negb (w_finished w) && negb (w_unsub w) && (at_time =? w_now w)); [|discriminate].
  destruct (w_cur w) as [[e0|t| | | | | | | | |]|]; try discriminate.
  - destruct e0 as [v|x|]; try discriminate. destruct (de && ev_eqb e (Err x)); [|discriminate].
    intros H. inversion H. eexists. split; [reflexivity|]. discriminate.
  - destruct (nth_error (task_events de w) t) as [[e' arrived]|] eqn:En; [|discriminate].
    destruct (ev_eqb e e') eqn:Ee; [|discriminate]. apply ev_eqb_eq in Ee. subst e'. cbn [andb].
    destruct ((arrived + d <=? at_time) && negb (memn' t (w_delivered w))); [|discriminate].
    intros H. inversion H. eexists. split; [reflexivity|]. intros t' Ht. inversion Ht; subst t'. eauto.
Qed.

Lemma relay_step_src d de ls w x w1 :
  relay_step d de ls w x = Some w1 ->
  (exists ext, w_src w1 = w_src w ++ ext) /\ (match x with TMark _ => True | _ => w_cur w1 = w_cur w end).
Proof.
  assert (Same : forall w, exists ext, w_src w = w_src w ++ ext) by (exists []; rewrite app_nil_r; reflexivity).
  intros H. destruct x as [at_time e|b|t sq a|t|j]; try (inversion H; subst w1; split; [apply Same|reflexivity]).
  - destruct (relay_step_out d de ls w at_time e w1 H) as (idx & -> & _). split; [exact (Same w)|reflexivity].
  - inversion H; subst w1. split; [|exact I].
    destruct (nth_error ls j) as [[]|]; try exact (Same w). rewrite w_label_src_eq. cbn [w_src].
    destruct (negb (w_src_done w) && (w_subscribed w && negb (w_unsub w))); [eexists; reflexivity|apply Same].
Qed.

Lemma relay_walks o d de ls : relay_op o d de ->
  exists w' s', walk (relay_step d de ls) (w0 true) (run_timed o ls) = Some w' /\ RR d de s' w' /\ logged ls w'.
Proof.
  intros Ho. apply (label_sim (relay_step d de) w_label o (fun done s w => RR d de s w /\ logged done w)).
  - reflexivity.
  - intros ls' done s w l [R L]. destruct (relay_sim o d de ls' s w l Ho R) as (w' & E & (K1 & K2 & K3) & R'). exists w'.
    split; [exact E|]. split; [exact R'|]. intros r.
    rewrite <- app_assoc. cbn [app]. rewrite (L (l :: r)), K1, K2, K3. symmetry. apply accepted_label, (rr_sub R).
  - split; [apply rr_init, Ho|intros r; reflexivity].
Qed.

Lemma relay_meets_spec o d de : relay_op o d de -> forall ls, relay_ok d de ls (run_timed o ls) = true.
Proof. intros Ho ls. unfold relay_ok. destruct (relay_walks o d de ls Ho) as (w' & _ & -> & _). reflexivity. Qed.

Theorem delay_meets_spec : forall d ls, relay_ok d true ls (run_timed (TDelay d) ls) = true.
Proof. intros d. apply (relay_meets_spec (TDelay d) d true). split; reflexivity. Qed.

Theorem observe_on_meets_spec : forall ls, relay_ok 0 false ls (run_timed TObserveOn ls) = true.
Proof. apply (relay_meets_spec TObserveOn 0 false). split; reflexivity. Qed.

(* the deliveries made by task polls: (task index, notification), in the order of the trace *)
Fixpoint deliveries (ls : list tlab) (cur : option tlab) (out : list tout) : list (nat * ev) :=
  match out with
  | [] => []
  | TMark j :: r => deliveries ls (nth_error ls j) r
  | TOut _ e :: r =>
      match cur with
      | Some (LRun t) => (t, e) :: deliveries ls cur r
      | _ => deliveries ls cur r
      end
  | _ :: r => deliveries ls cur r
  end.

(* the accepted notifications that get a task: all of them for observe_on, all but an error for delay *)
Definition relayed (de : bool) (ls : list tlab) : list ev := filter (keepb de) (accepted_src ls false false).

(* a is l with some elements left out (TimedSpec.is_subseq: the boolean test on lists of values) *)
Inductive subseq {A : Type} : list A -> list A -> Prop :=
| subseq_nil : forall l, subseq [] l
| subseq_take : forall x a l, subseq a l -> subseq (x :: a) (x :: l)
| subseq_skip : forall x a l, subseq a l -> subseq a (x :: l).

(* strictly increasing task indices, all at least lo *)
Fixpoint inc_from (lo : nat) (D : list (nat * ev)) : Prop :=
  match D with
  | [] => True
  | (t, _) :: r => (lo <= t)%nat /\ inc_from (S t) r
  end.

Definition increasing (D : list (nat * ev)) : Prop := inc_from 0 D.

Lemma inc_weaken : forall D lo lo', (lo <= lo')%nat -> inc_from lo' D -> inc_from lo D.
Proof. intros [|[t e] r] lo lo' H; cbn [inc_from]; [auto|]. intros [H1 H2]. split; [lia|exact H2]. Qed.

Lemma inc_ge : forall D lo t e, inc_from lo D -> In (t, e) D -> (lo <= t)%nat.
Proof.
  induction D as [|[t0 e0] r IH]; intros lo t e H Hin; [destruct Hin|]. destruct H as [H1 H2]. destruct Hin as [Hin|Hin].
  - inversion Hin; subst. exact H1.
  - pose proof (IH (S t0) t e H2 Hin). lia.
Qed.

Lemma increasing_subseq : forall (L : list ev) D lo,
  inc_from lo D -> (forall t e, In (t, e) D -> nth_error L (t - lo) = Some e) -> subseq (map snd D) L.
Proof.
  induction L as [|x L IH]; intros [|[t e] r] lo Hinc Hl; try apply subseq_nil.
  - pose proof (Hl t e (or_introl eq_refl)) as H. destruct (t - lo)%nat; discriminate.
  - assert (Hge : forall t' e', In (t', e') r -> (S t <= t')%nat) by (intros t' e'; apply inc_ge, Hinc).
    pose proof (Hl t e (or_introl eq_refl)) as H0. destruct Hinc as [H1 H2]. destruct (Nat.eq_dec t lo) as [->|Hne].
    + rewrite Nat.sub_diag in H0. inversion H0; subst x. cbn [map snd]. apply subseq_take, (IH r (S lo) H2).
      intros t' e' H'. pose proof (Hge t' e' H'). pose proof (Hl t' e' (or_intror H')) as Hn.
      replace (t' - lo)%nat with (S (t' - S lo)) in Hn by lia. exact Hn.
    + apply subseq_skip, (IH ((t, e) :: r) (S lo)); [split; [lia|exact H2]|].
      intros t' e' H'. pose proof (Hl t' e' H') as Hn.
      assert (S lo <= t')%nat by (destruct H' as [H'|H']; [inversion H'; lia|pose proof (Hge t' e' H'); lia]).
      replace (t' - lo)%nat with (S (t' - S lo)) in Hn by lia. exact Hn.
Qed.

Lemma relay_walk_src d de ls : forall out w w', walk (relay_step d de ls) w out = Some w' -> exists ext, w_src w' = w_src w ++ ext.
Proof.
  induction out as [|x r IH]; intros w w' H; cbn [walk] in H.
  - inversion H. exists []. rewrite app_nil_r. reflexivity.
  - destruct (relay_step d de ls w x) as [w1|] eqn:E; [|discriminate].
    destruct (relay_step_src d de ls w x w1 E) as [(e1 & H1) _]. destruct (IH w1 w' H) as (e2 & H2).
    exists (e1 ++ e2). rewrite H2, H1, app_assoc. reflexivity.
Qed.

Lemma task_events_mono de w w' ext t x :
  w_src w' = w_src w ++ ext -> nth_error (task_events de w) t = Some x -> nth_error (task_events de w') t = Some x.
Proof.
  intros H Hn. unfold task_events in *. rewrite H, filter_app, nth_error_app1; [exact Hn|].
  apply nth_error_Some. congruence.
Qed.

Lemma relay_deliveries d de ls : forall out w w',
  walk (relay_step d de ls) w out = Some w' ->
  forall t e, In (t, e) (deliveries ls (w_cur w) out) -> exists arrived, nth_error (task_events de w') t = Some (e, arrived).
Proof.
  induction out as [|x r IH]; intros w w' H t e Hin; [destruct Hin|].
  cbn [walk] in H. destruct (relay_step d de ls w x) as [w1|] eqn:E; [|discriminate].
  destruct (relay_walk_src d de ls r w1 w' H) as (ext & Hext).
  destruct (relay_step_src d de ls w x w1 E) as [_ K].
  destruct x as [at_time e0|b|t0 sq a|t0|j]; cbn [deliveries] in Hin;
    try (rewrite <- K in Hin; apply (IH w1 w' H t e Hin)).
  - rename K into Hc. destruct (relay_step_out d de ls w at_time e0 w1 E) as (idx & -> & Hrun).
    destruct (w_cur w) as [[e1|t1| | | | | | | | |]|] eqn:Ec; try (apply (IH _ w' H t e); rewrite Hc; exact Hin).
    destruct Hin as [Hin|Hin]; [|apply (IH _ w' H t e); rewrite Hc; exact Hin].
    inversion Hin; subst t1 e0. destruct (Hrun t eq_refl) as (_ & arr & En).
    exists arr. apply (task_events_mono de (w_deliver w idx e) w' ext); [exact Hext|exact En].
  - inversion E; subst w1. apply (IH _ w' H t e).
    replace (w_cur (w_label w (nth_error ls j))) with (nth_error ls j); [exact Hin|].
    destruct (nth_error ls j) as [[]|]; try reflexivity. rewrite w_label_src_eq. reflexivity.
Qed.

Lemma map_fst_filter {A B} (f : A -> bool) (l : list (A * B)) :
  map fst (filter (fun p => f (fst p)) l) = filter f (map fst l).
Proof.
  induction l as [|[a b] l IH]; [reflexivity|]. cbn [filter map fst]. destruct (f a); cbn [map fst]; rewrite IH; reflexivity.
Qed.

(* Order, for every label sequence: a delivery made by a poll of task t is the t-th relayed
   notification of the accepted input; hence, whenever the polls that deliver come in increasing
   task order (a FIFO executor), what is delivered is a sub-sequence of the input, in input order. *)
Theorem relay_order o d de ls : relay_op o d de ->
  (forall t e, In (t, e) (deliveries ls None (run_timed o ls)) -> nth_error (relayed de ls) t = Some e) /\
  (increasing (deliveries ls None (run_timed o ls)) ->
   subseq (map snd (deliveries ls None (run_timed o ls))) (relayed de ls)).
Proof.
  intros Ho. destruct (relay_walks o d de ls Ho) as (w' & _ & W & _ & L).
  assert (Hlog : map fst (task_events de w') = relayed de ls).
  { unfold relayed. specialize (L []). rewrite !app_nil_r in L. rewrite L. apply (map_fst_filter (keepb de)). }
  assert (Hall : forall t e, In (t, e) (deliveries ls None (run_timed o ls)) -> nth_error (relayed de ls) t = Some e).
  { intros t e Hin. destruct (relay_deliveries d de ls _ (w0 true) w' W t e Hin) as (a & Ha).
    rewrite <- Hlog. apply (map_nth_error fst _ _ Ha). }
  split; [exact Hall|]. intros Hinc. apply (increasing_subseq _ _ 0%nat Hinc).
  intros t e Hin. rewrite Nat.sub_0_r. apply Hall, Hin.
Qed.

Theorem delay_order : forall d ls,
  (forall t e, In (t, e) (deliveries ls None (run_timed (TDelay d) ls)) -> nth_error (relayed true ls) t = Some e) /\
  (increasing (deliveries ls None (run_timed (TDelay d) ls)) ->
   subseq (map snd (deliveries ls None (run_timed (TDelay d) ls))) (relayed true ls)).
Proof. intros d ls. apply (relay_order (TDelay d) d true ls). split; reflexivity. Qed.

Theorem observe_on_order : forall ls,
  (forall t e, In (t, e) (deliveries ls None (run_timed TObserveOn ls)) -> nth_error (relayed false ls) t = Some e) /\
  (increasing (deliveries ls None (run_timed TObserveOn ls)) ->
   subseq (map snd (deliveries ls None (run_timed TObserveOn ls))) (relayed false ls)).
Proof. intros ls. apply (relay_order TObserveOn 0 false ls). split; reflexivity. Qed.

Lemma relayed_all ls : relayed false ls = accepted_src ls false false.
Proof. unfold relayed. induction (accepted_src ls false false) as [|e l IH]; [reflexivity|]. cbn. rewrite IH. reflexivity. Qed.

(* the increasing-order premise is needed: an executor that polls out of spawn order reorders the items *)
Example delay_reorders_under_unordered_polls :
  let ls := [LSrc (Next (VZ 1)); LRun 0; LSrc (Next (VZ 2)); LRun 1; LSrc (Next (VZ 3)); LRun 2; LAdv 5; LRun 0; LRun 2; LRun 1] in
  deliveries ls None (run_timed (TDelay 5) ls) = [(0%nat, Next (VZ 1)); (2%nat, Next (VZ 3)); (1%nat, Next (VZ 2))] /\
  relayed true ls = [Next (VZ 1); Next (VZ 2); Next (VZ 3)].
Proof. split; vm_compute; reflexivity. Qed.


Lemma solo_run o s tk j k : tasks s = [tk] -> jobs s = [j] -> t_body tk = BOnce k ->
  tstep o s (LRun 0) =
  let s1 := upd_tasks s [fst (poll (now s) tk)] in
  match snd (poll (now s) tk) with PNone => (s1, []) | PRun _ _ _ => fst (on_job o s1 0 j 0) end.
Proof.
  intros Ht Hj Hb. cbn [tstep]. rewrite Ht, Hj. cbn [nth_error set_nth].
  pose proof (poll_once (now s) tk k Hb) as P. destruct (poll (now s) tk) as [tk1 res]. cbn [fst snd].
  destruct P as [(-> & _)|(-> & _)]; [reflexivity|]. destruct (on_job o _ 0 j 0) as [[s2 out] c]. reflexivity.
Qed.

Lemma solo_idle o s tk t : tasks s = [tk] -> tstep o s (LRun (S t)) = (s, []).
Proof. intros Ht. cbn [tstep]. rewrite Ht. destruct t; reflexivity. Qed.

Lemma solo_unsub o s tk j : tasks s = [tk] -> jobs s = [j] -> j <> JRawSub ->
  unsub_handle o s 0 =
  (if subscribing j && t_value tk then upd_src (upd_tasks s [cancel tk]) false (src_done s) else upd_tasks s [cancel tk], []).
Proof.
  intros Ht Hj Hn. unfold unsub_handle, cancel_task, handle_closed. rewrite Ht, Hj. cbn [nth_error set_nth].
  destruct j; try reflexivity; [destruct (t_value tk); reflexivity|contradiction].
Qed.

Definition pass_op (o : top) (d : N) : Prop :=
  match o with TDelaySubscription d' => d' = d | TSubscribeOn => d = 0 | _ => False end.

Lemma pass_unsub_eq o d s : pass_op o d -> tstep o s LUnsub = unsub_main o s.
Proof. destruct o; try contradiction; reflexivity. Qed.

(* the subscriber is subscribed to the input itself *)
Lemma pass_on_src o d s e : pass_op o d -> on_src o s e = (s, [TOut (now s) e]).
Proof. destruct o; try contradiction; reflexivity. Qed.

Record RP (d : N) (s : tsys) (w : wstate) : Prop := {
  rp_now : w_now w = now s;
  rp_jobs : jobs s = [JSubscribe];
  rp_main : main_task s = Some 0%nat;
  rp_fin : src_done s = false -> w_finished w = false;
  rp_task : exists tk, tasks s = [tk] /\ (exists k, t_body tk = BOnce k) /\
      ((src_on s = false /\ (dead tk \/ (w_unsub w = false /\ not_before d (now s) tk)))
       \/ (src_on s = true /\ w_unsub w = false /\ d <= now s /\ t_stage tk = StFinished /\ t_value tk = true))
}.

Definition p_same (w w' : wstate) : Prop :=
  w_now w' = w_now w /\ w_unsub w' = w_unsub w /\ w_finished w' = w_finished w.

Lemma rp_frame d s w s' w' :
  RP d s w -> p_same w w' ->
  now s' = now s -> tasks s' = tasks s -> jobs s' = jobs s -> main_task s' = main_task s -> src_on s' = src_on s ->
  (src_done s' = false -> src_done s = false) -> RP d s' w'.
Proof.
  intros [R1 R2 R3 R4 (tk & T1 & T2 & T3)] (W1 & W2 & W3) S1 S2 S3 S4 S5 S6.
  constructor; try congruence.
  - intros H. rewrite W3. apply R4, S6, H.
  - exists tk. split; [congruence|]. split; [exact T2|]. rewrite S5, W2, S1. exact T3.
Qed.

Lemma p_same_label w l : match l with LAdv _ | LUnsub => False | _ => True end -> p_same w (w_label w (Some l)).
Proof. destruct l; intros H; try contradiction; try (repeat split; fail). rewrite w_label_src_eq. repeat split. Qed.

Lemma pass_skip d ls w x : match x with TOut _ _ | TMark _ => False | _ => True end -> passthru_step d ls w x = Some w.
Proof. destruct x; intros H; try contradiction; reflexivity. Qed.

Lemma pass_walk_inert d ls : forall out w, inert out -> walk (passthru_step d ls) w out = Some w.
Proof. apply walk_skip, pass_skip. Qed.

(* as sim_goal, for passthru_step and RP *)
Definition pass_goal (o : top) (d : N) (ls : list tlab) (s : tsys) (w : wstate) (l : tlab) : Prop :=
  exists w', walk (passthru_step d ls) (w_label w (Some l)) (snd (tstep o s l)) = Some w' /\ RP d (fst (tstep o s l)) w'.

Lemma pass_src o d ls s w e : pass_op o d -> RP d s w -> pass_goal o d ls s w (LSrc e).
Proof.
  intros Ho R. unfold pass_goal. set (w1 := w_label w (Some (LSrc e))).
  assert (Hs : p_same w w1) by (apply p_same_label; exact I).
  assert (Hcur : w_cur w1 = Some (LSrc e)) by (unfold w1; rewrite w_label_src_eq; reflexivity).
  clearbody w1. cbn [tstep].
  destruct (src_done s) eqn:Ed.
  - cbn [fst snd walk]. exists w1. split; [reflexivity|]. apply (rp_frame d s w s w1 R Hs); auto.
  - destruct (src_on s) eqn:Eo.
    + rewrite (pass_on_src o d _ e Ho). cbn [fst snd walk].
      destruct R as [R1 R2 R3 R4 (tk & T1 & T2 & T3)]. destruct Hs as (W1 & W2 & W3).
      destruct T3 as [(T3 & _)|(_ & Hu & Hd & Hst & Hv)]; [congruence|].
      assert (Hn : now (if is_term e then upd_src s false true else s) = now s) by (destruct (is_term e); reflexivity).
      assert (Hst' : passthru_step d ls w1 (TOut (now s) e) = Some (w_deliver w1 0 e)).
      { unfold passthru_step. rewrite W3, (R4 Ed), W2, Hu, W1, R1, N.eqb_refl, Hcur, ev_eqb_refl, (proj2 (N.leb_le _ _) Hd). reflexivity. }
      rewrite Hn, Hst'. eexists. split; [reflexivity|].
      destruct (is_term e) eqn:Et.
      * constructor; cbn [upd_src now tasks jobs main_task src_done src_on w_deliver w_now w_finished w_unsub]; try congruence.
        exists tk. split; [exact T1|]. split; [exact T2|]. left. split; [reflexivity|]. left. left. exact Hst.
      * constructor; cbn [w_deliver w_now w_finished w_unsub]; try congruence.
        -- intros _. rewrite W3, (R4 Ed), Et. reflexivity.
        -- exists tk. split; [exact T1|]. split; [exact T2|]. right. rewrite W2. auto.
    + cbn [fst snd walk]. exists w1. split; [reflexivity|].
      apply (rp_frame d s w _ w1 R Hs); destruct (is_term e); auto.
Qed.

Lemma pass_run o d ls s w t : RP d s w -> pass_goal o d ls s w (LRun t).
Proof.
  intros R. unfold pass_goal. set (w1 := w_label w (Some (LRun t))).
  assert (Hs : p_same w w1) by (repeat split). clearbody w1.
  assert (R0 : RP d s w1) by (apply (rp_frame d s w s w1 R Hs); auto).
  destruct R as [R1 R2 R3 R4 (tk & T1 & (k & T2) & T3)]. destruct Hs as (W1 & W2 & W3).
  destruct t as [|t]; [|rewrite (solo_idle o s tk t T1); exists w1; split; [reflexivity|exact R0]].
  rewrite (solo_run o s tk JSubscribe k T1 R2 T2). cbn zeta. cbn [on_job fst snd].
  pose proof (poll_cases (now s) tk) as P. pose proof (poll_dead (now s) tk) as PD.
  destruct (poll (now s) tk) as [tk1 res]. cbn [fst snd] in *. destruct P as (Hb & _ & Hnb & P).
  exists w1. split; [destruct res; reflexivity|]. destruct res as [|j sq rp].
  - destruct P as (Ev & Hst). constructor; cbn [fst upd_tasks now tasks jobs main_task src_done src_on]; try congruence.
    { intros H. rewrite W3. apply R4, H. }
    exists tk1. split; [reflexivity|]. split; [exists k; congruence|]. rewrite W2.
    destruct T3 as [(T3 & [D|(Hu & Hd)])|(T3 & Hu & Hd & F & Hv)].
    + left. split; [exact T3|]. left. apply (PD D).
    + left. split; [exact T3|]. right. split; [exact Hu|apply Hnb, Hd].
    + right. repeat split; auto; [|congruence]. destruct Hst as [F1|(_ & NF)]; [exact F1|contradiction].
  - (* the subscribing task runs: it was waiting, and its time has come *)
    destruct P as (K & NF & Hle & P). rewrite T2 in P. destruct P as (_ & _ & _ & F1 & V1).
    constructor; cbn [fst upd_src upd_tasks now tasks jobs main_task src_done src_on]; try congruence.
    { intros H. rewrite W3. apply R4, H. }
    exists tk1. split; [reflexivity|]. split; [exists k; congruence|]. right.
    destruct T3 as [(_ & [[F|K']|(Hu & Hd)])|(_ & _ & _ & F & _)]; try contradiction; [congruence|].
    repeat split; auto. congruence.
Qed.

Lemma pass_unsub o d ls s w : pass_op o d -> RP d s w -> pass_goal o d ls s w LUnsub.
Proof.
  intros Ho [R1 R2 R3 R4 (tk & T1 & T2 & T3)]. unfold pass_goal.
  rewrite (pass_unsub_eq o d s Ho). unfold unsub_main. rewrite R3, (solo_unsub o s tk JSubscribe T1 R2) by discriminate. cbn [subscribing andb fst snd walk].
  eexists. split; [reflexivity|].
  assert (Hoff : src_on (if t_value tk then upd_src (upd_tasks s [cancel tk]) false (src_done s) else upd_tasks s [cancel tk]) = false).
  { destruct (t_value tk) eqn:Ev; [reflexivity|]. destruct T3 as [(T3 & _)|(_ & _ & _ & _ & Hv)]; [exact T3|congruence]. }
  constructor; cbn [w_label w_now w_finished w_unsub]; try (destruct (t_value tk); assumption).
  exists (cancel tk). split; [destruct (t_value tk); reflexivity|]. split; [exact T2|]. left. split; [exact Hoff|]. left. apply dead_cancel.
Qed.

Lemma pass_adv o d ls s w dt : RP d s w -> pass_goal o d ls s w (LAdv dt).
Proof.
  intros [R1 R2 R3 R4 (tk & T1 & T2 & T3)]. unfold pass_goal. cbn [tstep fst snd walk]. eexists. split; [reflexivity|].
  constructor; cbn [upd_now now tasks jobs main_task src_done src_on w_label w_now w_finished w_unsub]; auto; [congruence|].
  exists tk. split; [exact T1|]. split; [exact T2|].
  destruct T3 as [(T3 & [D|(Hu & Hd)])|(T3 & Hu & Hd & Hst & Hv)]; [left; auto|left|right; repeat split; auto; lia].
  split; [exact T3|]. right. split; [exact Hu|apply not_before_later, Hd].
Qed.

Lemma pass_quiet o d ls s w l : pass_op o d -> quiet_label l -> RP d s w -> pass_goal o d ls s w l.
Proof.
  intros Ho Hl R. assert (Hs : p_same w (w_label w (Some l))) by (apply p_same_label; destruct l; auto).
  apply quiet_sim; auto; [destruct o; try contradiction; exact I|apply pass_skip| |];
    apply (rp_frame d s w _ _ R Hs); auto.
Qed.

Lemma rp_init o d : pass_op o d -> RP d (tinit o) (w0 true).
Proof.
  intros Ho. destruct o; cbn [pass_op] in Ho; try contradiction; subst; cbn [tinit schedule upd_src upd_main];
    (constructor; cbn; auto; eexists; split; [reflexivity|]; split; [eexists; reflexivity|]; left; split; [reflexivity|];
     right; split; [reflexivity|]; unfold not_before; cbn; lia).
Qed.

Lemma pass_meets_spec o d : pass_op o d -> forall ls, passthru_ok d ls (run_timed o ls) = true.
Proof.
  intros Ho ls. unfold passthru_ok.
  destruct (label_sim (passthru_step d) w_label o (fun _ => RP d)) with (ls := ls) (w := w0 true) as (w' & _ & -> & _);
    [| |apply rp_init, Ho|reflexivity].
  - reflexivity.
  - intros ls' _ s w l R. destruct l; try (apply pass_quiet; [exact Ho|exact I|exact R]).
    + apply pass_src; assumption.
    + apply pass_run; assumption.
    + apply pass_adv; assumption.
    + apply pass_unsub; assumption.
Qed.

Theorem delay_subscription_meets_spec : forall d ls, passthru_ok d ls (run_timed (TDelaySubscription d) ls) = true.
Proof. intros d. apply (pass_meets_spec (TDelaySubscription d) d). reflexivity. Qed.

Theorem subscribe_on_meets_spec : forall ls, passthru_ok 0 ls (run_timed TSubscribeOn ls) = true.
Proof. apply (pass_meets_spec TSubscribeOn 0). reflexivity. Qed.

(* FIFO completeness: polled in spawn order, everything arrives in source order. *)

Lemma touts_app a b : touts (a ++ b) = touts a ++ touts b.
Proof. exact (TimedLaws.touts_app a b). Qed.

(* the input phase: one fresh task per notification, nothing polled yet, the clock at 0 *)
Definition fed (delay : option N) (jl : list job) (s : tsys) : Prop :=
  now s = 0 /\ jobs s = jl /\ alive s = true /\ (exists l, multi s = Some l) /\ length (tasks s) = length jl /\
  (forall i tk, nth_error (tasks s) i = Some tk -> tk = spawn (BOnce i) delay).

Lemma fed_accepts o d de jl s e :
  relay_op o d de -> keepb de e = true -> fed (relay_delay o) jl s -> src_on s = true -> src_done s = false ->
  exists s', tstep o s (LSrc e) = (s', []) /\ fed (relay_delay o) (jl ++ [job_of e]) s' /\
             src_on s' = negb (is_term e) /\ src_done s' = is_term e.
Proof.
  intros Ho Hk (F1 & F2 & F3 & (l & Hl) & F5 & F6) Hon Hdone.
  rewrite (relay_accepts o d de s e l Ho Hon Hdone Hk Hl). eexists. split; [reflexivity|]. split; [|split; reflexivity].
  unfold fed, spawned. cbn [schedule fst upd_multi upd_src now jobs alive multi tasks].
  split; [exact F1|]. split; [rewrite F2; reflexivity|]. split; [exact F3|].
  split; [eexists; reflexivity|]. split; [rewrite !app_length, F5; reflexivity|].
  intros i tk Hi. apply nth_error_snoc in Hi. destruct Hi as [[_ Hi]|[-> ->]]; [apply (F6 i tk Hi)|reflexivity].
Qed.

Lemma fed_items o d de : relay_op o d de -> forall vs jl s rest,
  fed (relay_delay o) jl s -> src_on s = true -> src_done s = false ->
  exists s', fed (relay_delay o) (jl ++ map JEmit vs) s' /\ src_on s' = true /\ src_done s' = false /\
             routs o s (map (fun v => LSrc (Next v)) vs ++ rest) = routs o s' rest.
Proof.
  intros Ho. induction vs as [|v vs IH]; intros jl s rest F Hon Hdone.
  - exists s. rewrite app_nil_r. auto.
  - cbn [map app routs].
    destruct (fed_accepts o d de jl s (Next v) Ho) as (s1 & E1 & F1 & Hon1 & Hdone1); auto; [destruct de; reflexivity|]. rewrite E1.
    destruct (IH (jl ++ [JEmit v]) s1 rest F1 Hon1 Hdone1) as (s' & F' & Hon' & Hdone' & E').
    exists s'. rewrite <- app_assoc in F'. split; [exact F'|]. split; [exact Hon'|]. split; [exact Hdone'|]. exact E'.
Qed.

Lemma fed_init o d de : relay_op o d de -> fed (relay_delay o) [] (tinit o) /\ src_on (tinit o) = true /\ src_done (tinit o) = false.
Proof.
  intros Ho. destruct o; try contradiction; cbn [tinit]; (split; [|split; reflexivity]);
    (unfold fed; cbn; repeat split; auto; [eexists; reflexivity|intros [|i] tk Hi; discriminate]).
Qed.

Definition fifo_jobs (vs : list val) : list job := map JEmit vs ++ [JComplete].

Lemma fed_prefix o d de vs rest : relay_op o d de ->
  exists s, fed (relay_delay o) (map JEmit vs) s /\ src_on s = true /\ src_done s = false /\
    touts (run_timed o (map (fun v => LSrc (Next v)) vs ++ rest)) = routs o s rest.
Proof.
  intros Ho. destruct (fed_init o d de Ho) as (F0 & Hon0 & Hdone0). unfold run_timed. rewrite touts_run.
  apply (fed_items o d de Ho vs [] _ rest F0 Hon0 Hdone0).
Qed.

Lemma fed_source o d de vs rest : relay_op o d de ->
  exists s, fed (relay_delay o) (fifo_jobs vs) s /\
    touts (run_timed o (map (fun v => LSrc (Next v)) vs ++ LSrc Done :: rest)) = routs o s rest.
Proof.
  intros Ho. destruct (fed_prefix o d de vs (LSrc Done :: rest) Ho) as (s1 & F1 & Hon1 & Hdone1 & E1). rewrite E1.
  destruct (fed_accepts o d de (map JEmit vs) s1 Done Ho) as (s2 & E2 & F2 & _); auto; [destruct de; reflexivity|].
  cbn [routs]. rewrite E2. exists s2. split; [exact F2|reflexivity].
Qed.

(* its stage afterwards: finished if the body was reached *)
Definition after_poll (T : N) (st : stage) : stage :=
  if snd (stage_poll T st) then StFinished else fst (stage_poll T st).

Lemma poll_one_shot T tk b : t_keep tk = true -> t_body tk = BOnce b ->
  exists tk1, poll T tk = (tk1, if snd (stage_poll T (t_stage tk)) then PRun b 0 false else PNone) /\
    t_keep tk1 = true /\ t_body tk1 = BOnce b /\ t_stage tk1 = after_poll T (t_stage tk).
Proof.
  intros Hk Hb. destruct (poll_kept T tk Hk) as (tk1 & P & K1 & B1 & S1). unfold after_poll. rewrite P.
  destruct (snd (stage_poll T (t_stage tk))); [|exists tk1; repeat split; auto; congruence].
  unfold poll_body. rewrite B1, Hb. eexists. split; [reflexivity|]. cbn [finished_ok t_keep t_body t_stage]. repeat split; auto; congruence.
Qed.

(* the tasks of the notifications, polled in order at time T: those before k have been polled, all were in stage st *)
Definition lined (JL : list job) (T : N) (k : nat) (st : stage) (s : tsys) : Prop :=
  now s = T /\ jobs s = JL /\ alive s = true /\ length (tasks s) = length JL /\
  forall i tk, nth_error (tasks s) i = Some tk ->
    t_keep tk = true /\ (exists b, t_body tk = BOnce b) /\ t_stage tk = if Nat.ltb i k then after_poll T st else st.

Lemma lined_run o JL T k st s e :
  lined JL T k st s -> nth_error JL k = Some (job_of e) ->
  exists s', tstep o s (LRun k) = (s', if snd (stage_poll T st) then [TOut T e] else []) /\
             (snd (stage_poll T st) && is_term e = false -> lined JL T (S k) st s').
Proof.
  intros (A1 & A2 & A3 & A4 & A5) Hj.
  assert (Hk : (k < length JL)%nat) by (apply nth_error_Some; congruence).
  destruct (nth_error (tasks s) k) as [tk|] eqn:Et; [|apply nth_error_None in Et; lia].
  destruct (A5 k tk Et) as (K1 & (b & K2) & K3). rewrite Nat.ltb_irrefl in K3.
  destruct (poll_one_shot T tk b K1 K2) as (tk1 & P & K1' & B1 & S1). rewrite K3 in P, S1.
  rewrite <- A2 in Hj. rewrite (lrun_shape o s k tk b e Et Hj K2), A1, P, A3. cbn [fst snd].
  set (s1 := upd_tasks s (set_nth (tasks s) k tk1)).
  exists (if snd (stage_poll T st) && is_term e then upd_alive s1 false else s1). split.
  { destruct (snd (stage_poll T st)); [destruct (is_term e)|]; reflexivity. }
  intros ->. unfold lined. cbn [s1 upd_tasks now jobs alive tasks]. rewrite set_nth_length.
  split; [exact A1|]. split; [exact A2|]. split; [exact A3|]. split; [exact A4|].
  intros i tk' Hi. apply nth_error_set_nth in Hi. destruct Hi as [[-> ->]|[Hne Hi]].
  - rewrite (proj2 (Nat.ltb_lt k (S k))) by lia. eauto.
  - destruct (A5 i tk' Hi) as (L1 & L2 & L3). split; [exact L1|]. split; [exact L2|]. rewrite L3.
    destruct (Nat.ltb_spec i k), (Nat.ltb_spec i (S k)); try reflexivity; lia.
Qed.

Lemma lined_items o JL T st tl : forall vs pre s rest,
  JL = map JEmit pre ++ map JEmit vs ++ tl -> lined JL T (length pre) st s ->
  exists s', lined JL T (length pre + length vs) st s' /\
    routs o s (map LRun (seq (length pre) (length vs)) ++ rest) =
    (if snd (stage_poll T st) then map (fun v => TOut T (Next v)) vs else []) ++ routs o s' rest.
Proof.
  induction vs as [|v vs IH]; intros pre s rest HJ R.
  - exists s. cbn [length seq map app]. rewrite Nat.add_0_r. destruct (snd (stage_poll T st)); auto.
  - cbn [length seq map app routs].
    assert (Hn : nth_error JL (length pre) = Some (job_of (Next v))).
    { rewrite HJ. cbn [map app]. rewrite <- (map_length JEmit pre). apply nth_error_mid. }
    destruct (lined_run o JL T (length pre) st s (Next v) R Hn) as (s1 & E1 & R1). rewrite E1.
    specialize (R1 (Bool.andb_false_r _)).
    assert (HJ' : JL = map JEmit (pre ++ [v]) ++ map JEmit vs ++ tl).
    { rewrite HJ, map_app, <- app_assoc. reflexivity. }
    assert (Hl : length (pre ++ [v]) = S (length pre)) by (rewrite app_length; cbn; lia).
    rewrite <- Hl in R1.
    destruct (IH (pre ++ [v]) s1 rest HJ' R1) as (s' & R' & E'). rewrite Hl in R', E'.
    exists s'. split; [replace (length pre + S (length vs))%nat with (S (length pre) + length vs)%nat by lia; exact R'|].
    cbn [fst snd]. rewrite E'. destruct (snd (stage_poll T st)); reflexivity.
Qed.

Lemma lined_sweep o T st vs s rest :
  lined (fifo_jobs vs) T 0 st s ->
  exists s', routs o s (map LRun (seq 0 (S (length vs))) ++ rest) =
             (if snd (stage_poll T st) then map (fun v => TOut T (Next v)) vs ++ [TOut T Done] else []) ++ routs o s' rest /\
             (snd (stage_poll T st) = false -> lined (fifo_jobs vs) T (S (length vs)) st s').
Proof.
  intros R. rewrite seq_S, map_app, <- app_assoc. cbn [Nat.add map app].
  destruct (lined_items o (fifo_jobs vs) T st [JComplete] vs [] s (LRun (length vs) :: rest) eq_refl R) as (s1 & R1 & E1).
  cbn [length Nat.add] in E1, R1. rewrite E1.
  assert (Hn : nth_error (fifo_jobs vs) (length vs) = Some (job_of Done)).
  { unfold fifo_jobs. rewrite <- (map_length JEmit vs). apply nth_error_mid. }
  destruct (lined_run o _ T (length vs) st s1 Done R1 Hn) as (s2 & E2 & R2).
  cbn [routs]. rewrite E2. cbn [fst snd]. exists s2.
  destruct (snd (stage_poll T st)); [rewrite <- app_assoc|]; (split; [reflexivity|]); [discriminate|intros _; apply R2; reflexivity].
Qed.

Lemma fed_lined JL delay T s s' :
  fed delay JL s -> now s' = T -> tasks s' = tasks s -> jobs s' = jobs s -> alive s' = alive s ->
  lined JL T 0 (match delay with Some d => StDelay d | None => StBody end) s'.
Proof.
  intros (F1 & F2 & F3 & _ & F5 & F6) S1 S2 S3 S4. unfold lined. rewrite S2, S3, S4.
  repeat split; auto; rewrite (F6 i tk H); cbn; eauto.
Qed.

Lemma lined_again JL T k st dt s : k = length JL -> lined JL T k st s -> lined JL (T + dt) 0 (after_poll T st) (upd_now s (now s + dt)).
Proof.
  intros -> (A1 & A2 & A3 & A4 & A5). unfold lined. cbn [upd_now now jobs alive tasks]. rewrite A1. repeat split; auto;
    destruct (A5 i tk H) as (L1 & L2 & L3); auto.
  rewrite L3, (proj2 (Nat.ltb_lt i (length JL))); [reflexivity|]. rewrite <- A4. apply nth_error_Some. congruence.
Qed.

Theorem observe_on_fifo_complete : forall vs,
  touts (run_timed TObserveOn (map (fun v => LSrc (Next v)) vs ++ LSrc Done :: map LRun (seq 0 (S (length vs)))))
  = map (fun v => TOut 0 (Next v)) vs ++ [TOut 0 Done].
Proof.
  intros vs. destruct (fed_source TObserveOn 0 false vs (map LRun (seq 0 (S (length vs)))) (conj eq_refl eq_refl)) as (s & F & E).
  rewrite E, <- (app_nil_r (map LRun _)).
  destruct (lined_sweep TObserveOn 0 StBody vs s []) as (s' & E' & _); [apply (fed_lined _ None 0 s s F); auto; apply F|].
  rewrite E'. apply app_nil_r.
Qed.

(* delay 0 needs no arming round, also when the clock has stood still (LAdv 0) in between *)
Theorem delay_zero_fifo_complete : forall vs,
  touts (run_timed (TDelay 0) (map (fun v => LSrc (Next v)) vs ++ LSrc Done :: LAdv 0 :: map LRun (seq 0 (S (length vs)))))
  = map (fun v => TOut 0 (Next v)) vs ++ [TOut 0 Done].
Proof.
  intros vs. destruct (fed_source (TDelay 0) 0 true vs (LAdv 0 :: map LRun (seq 0 (S (length vs)))) (conj eq_refl eq_refl)) as (s & F & E).
  rewrite E. cbn [routs tstep fst snd]. rewrite <- (app_nil_r (map LRun _)).
  destruct (lined_sweep (TDelay 0) 0 (StDelay 0) vs (upd_now s (now s + 0)) []) as (s' & E' & _).
  { apply (fed_lined _ (Some 0) 0 s _ F); auto. cbn [upd_now now]. rewrite (proj1 F). reflexivity. }
  rewrite E'. apply app_nil_r.
Qed.

(* delay d, d > 0: every task polled once when it is spawned (here: after the input phase, at time 0),
   the delay elapses, the tasks are polled again in spawn order *)
Theorem delay_fifo_complete : forall d vs, 0 < d ->
  touts (run_timed (TDelay d)
           (map (fun v => LSrc (Next v)) vs ++ LSrc Done ::
            map LRun (seq 0 (S (length vs))) ++ LAdv d :: map LRun (seq 0 (S (length vs)))))
  = map (fun v => TOut d (Next v)) vs ++ [TOut d Done].
Proof.
  intros d vs Hd.
  destruct (fed_source (TDelay d) d true vs (map LRun (seq 0 (S (length vs))) ++ LAdv d :: map LRun (seq 0 (S (length vs))))
              (conj eq_refl eq_refl)) as (s & F & E).
  rewrite E. cbn [relay_delay] in F.
  assert (H0 : stage_poll 0 (StDelay d) = (StWait d, false)) by (cbn; rewrite (proj2 (N.ltb_lt 0 d) Hd); reflexivity).
  destruct (lined_sweep (TDelay d) 0 (StDelay d) vs s (LAdv d :: map LRun (seq 0 (S (length vs)))))
    as (s1 & E1 & L1); [apply (fed_lined _ (Some d) 0 s s F); auto; apply F|].
  rewrite H0 in E1, L1. rewrite E1. cbn [snd app routs tstep fst]. rewrite <- (app_nil_r (map LRun _)).
  assert (Hn : S (length vs) = length (fifo_jobs vs)) by (unfold fifo_jobs; rewrite app_length, map_length; cbn; lia).
  pose proof (lined_again _ 0 _ (StDelay d) d s1 Hn (L1 eq_refl)) as L2.
  unfold after_poll in L2. rewrite H0 in L2. cbn [fst snd] in L2. rewrite N.add_0_l in L2.
  destruct (lined_sweep (TDelay d) d (StWait d) vs _ [] L2) as (s2 & E2 & _).
  cbn [stage_poll] in E2. rewrite N.ltb_irrefl in E2. cbn [snd] in E2.
  etransitivity; [exact E2|apply app_nil_r].
Qed.

(* FIFO completeness read without the arming round - input, the delay elapses, the tasks polled in order -
   does not hold for d > 0: those polls only start the timers, nothing is delivered *)
Theorem delay_fifo_unarmed_silent : forall d vs, 0 < d ->
  touts (run_timed (TDelay d)
           (map (fun v => LSrc (Next v)) vs ++ LSrc Done :: LAdv d :: map LRun (seq 0 (S (length vs))))) = [].
Proof.
  intros d vs Hd.
  destruct (fed_source (TDelay d) d true vs (LAdv d :: map LRun (seq 0 (S (length vs)))) (conj eq_refl eq_refl)) as (s & F & E).
  rewrite E. cbn [relay_delay] in F. cbn [routs tstep fst snd]. rewrite <- (app_nil_r (map LRun _)).
  destruct (lined_sweep (TDelay d) (now s + d) (StDelay d) vs (upd_now s (now s + d)) []) as (s' & E' & _).
  { apply (fed_lined _ (Some d) _ s _ F); reflexivity. }
  rewrite E'. cbn [stage_poll]. rewrite (proj2 (N.ltb_lt _ _)) by lia. reflexivity.
Qed.

(* for d = 5 and two items: nothing comes out, while delay_fifo_complete's right-hand side is not empty *)
Example delay_fifo_as_stated_counterexample :
  touts (run_timed (TDelay 5)
           (map (fun v => LSrc (Next v)) [VZ 1; VZ 2] ++ LSrc Done :: LAdv 5 :: map LRun (seq 0 (S (length [VZ 1; VZ 2])))))
  = [] /\
  map (fun v => TOut 5 (Next v)) [VZ 1; VZ 2] ++ [TOut 5 Done] <> [].
Proof. split; [apply (delay_fifo_unarmed_silent 5 [VZ 1; VZ 2]); reflexivity|discriminate]. Qed.

Lemma no_tout_touts out : no_tout out -> touts out = [].
Proof.
  induction out as [|x r IH]; intros H; [reflexivity|].
  pose proof (H x (or_introl eq_refl)) as Hx. destruct x; try contradiction; cbn [touts filter];
    apply IH; intros y Hy; apply H; right; exact Hy.
Qed.

(* an error is forwarded at once and ends everything, whatever happens afterwards *)
Theorem delay_error_prefix : forall d vs e rest,
  touts (run_timed (TDelay d) (map (fun v => LSrc (Next v)) vs ++ LSrc (Err e) :: rest)) = [TOut 0 (Err e)].
Proof.
  intros d vs e rest.
  destruct (fed_prefix (TDelay d) d true vs (LSrc (Err e) :: rest) (conj eq_refl eq_refl)) as (s & (G1 & G2 & G3 & _) & Hon & Hdone & E).
  rewrite E. cbn [routs]. rewrite (delay_forwards d s e Hon Hdone), slot_term_eq. cbn [fst snd upd_src alive now]. rewrite G3, G1.
  unfold touts at 1. cbn [filter app]. f_equal. rewrite <- (touts_run _ rest _ 0). apply no_tout_touts, silent_run; [exact I|].
  split; [reflexivity|]. intros i tk j Hi Hj. right. right. split; [reflexivity|].
  cbn [upd_alive upd_src jobs] in Hj. rewrite G2 in Hj. apply nth_error_In, in_map_iff in Hj.
  destruct Hj as (v & <- & _). reflexivity.
Qed.

Check delay_meets_spec : forall d ls, relay_ok d true ls (run_timed (TDelay d) ls) = true.
Check observe_on_meets_spec : forall ls, relay_ok 0 false ls (run_timed TObserveOn ls) = true.
Check delay_subscription_meets_spec : forall d ls, passthru_ok d ls (run_timed (TDelaySubscription d) ls) = true.
Check subscribe_on_meets_spec : forall ls, passthru_ok 0 ls (run_timed TSubscribeOn ls) = true.
Check delay_fifo_complete : forall d vs, 0 < d ->
  touts (run_timed (TDelay d)
           (map (fun v => LSrc (Next v)) vs ++ LSrc Done ::
            map LRun (seq 0 (S (length vs))) ++ LAdv d :: map LRun (seq 0 (S (length vs)))))
  = map (fun v => TOut d (Next v)) vs ++ [TOut d Done].
Check delay_zero_fifo_complete : forall vs,
  touts (run_timed (TDelay 0) (map (fun v => LSrc (Next v)) vs ++ LSrc Done :: LAdv 0 :: map LRun (seq 0 (S (length vs)))))
  = map (fun v => TOut 0 (Next v)) vs ++ [TOut 0 Done].
Check delay_fifo_unarmed_silent : forall d vs, 0 < d ->
  touts (run_timed (TDelay d)
           (map (fun v => LSrc (Next v)) vs ++ LSrc Done :: LAdv d :: map LRun (seq 0 (S (length vs))))) = [].
Check observe_on_fifo_complete : forall vs,
  touts (run_timed TObserveOn (map (fun v => LSrc (Next v)) vs ++ LSrc Done :: map LRun (seq 0 (S (length vs)))))
  = map (fun v => TOut 0 (Next v)) vs ++ [TOut 0 Done].
Check delay_error_prefix : forall d vs e rest,
  touts (run_timed (TDelay d) (map (fun v => LSrc (Next v)) vs ++ LSrc (Err e) :: rest)) = [TOut 0 (Err e)].

Print Assumptions delay_meets_spec.
Print Assumptions observe_on_meets_spec.
Print Assumptions delay_subscription_meets_spec.
Print Assumptions subscribe_on_meets_spec.
Print Assumptions delay_fifo_complete.
Print Assumptions delay_zero_fifo_complete.
Print Assumptions delay_fifo_unarmed_silent.
Print Assumptions delay_fifo_as_stated_counterexample.
Print Assumptions observe_on_fifo_complete.
Print Assumptions delay_error_prefix.
Print Assumptions relay_order.
Print Assumptions delay_order.
Print Assumptions observe_on_order.
