(* delay / observe_on, delay_subscription / subscribe_on and timer meet the completeness predicates of
   Spec/RelayComplete.v for every sequence of labels: one relation each (RC, RQ, RM) that every label preserves. *)
From RxModel Require Import Timed.
From RxSpec Require Import TimedSpec RelayComplete.
From RxProofs Require Import TimedLaws RelayLaws.
Open Scope N_scope.

(* the stage of a task that has not run agrees with the walk's record of its first poll *)
Definition stage_ok (d : N) (armed : list (nat * N)) (i : nat) (tk : task) : Prop :=
  match t_stage tk with
  | StDelay d' => d' = d /\ armed_at i armed = None
  | StWait due => exists a, armed_at i armed = Some a /\ due = a + d
  | StBody => d = 0 /\ armed_at i armed = None
  | StFinished => False
  end.

(* owed and due: no delay, or the timer that its first poll created has elapsed *)
Definition due_now (d : N) (armed : list (nat * N)) (i : nat) (now : N) : bool :=
  match armed_at i armed with Some a => a + d <=? now | None => d =? 0 end.

Lemma poll_pending now tk k d armed i :
  t_keep tk = true -> t_body tk = BOnce k -> stage_ok d armed i tk ->
  if due_now d armed i now then snd (poll now tk) = PRun k 0 false
  else snd (poll now tk) = PNone /\ t_keep (fst (poll now tk)) = true /\
       stage_ok d (match armed_at i armed with Some _ => armed | None => (i, now) :: armed end) i (fst (poll now tk)).
Proof.
  intros Hk Hb Hs. destruct (poll_one_shot now tk k Hk Hb) as (tk1 & P & K1 & _ & S1). rewrite P. cbn [fst snd].
  unfold stage_ok in *. rewrite S1. unfold after_poll, due_now.
  destruct (t_stage tk) as [d'|due| |]; cbn [stage_poll].
  - destruct Hs as [-> Ha]. rewrite Ha. destruct (N.eqb_spec d 0) as [->|Hd].
    + rewrite N.add_0_r, N.ltb_irrefl. reflexivity.
    + rewrite (proj2 (N.ltb_lt now (now + d))) by lia. cbn [fst snd armed_at]. rewrite Nat.eqb_refl. eauto.
  - destruct Hs as (a & Ha & ->). rewrite Ha. destruct (N.leb_spec (a + d) now) as [Hle|Hlt].
    + rewrite (proj2 (N.ltb_ge now (a + d)) Hle). reflexivity.
    + rewrite (proj2 (N.ltb_lt now (a + d)) Hlt). cbn [fst snd]. eauto.
  - destruct Hs as [-> Ha]. rewrite Ha. reflexivity.
  - contradiction.
Qed.

Lemma armed_at_cons_other t a A i : i <> t -> armed_at i ((t, a) :: A) = armed_at i A.
Proof. intros H. cbn [armed_at]. destruct (Nat.eqb_spec t i) as [->|_]; [contradiction|reflexivity]. Qed.

(* delay d / observe_on against the walking state of relay_complete: nothing is owed between labels, and every
   task whose notification is pending is kept and stands where the armed list says *)
Record RC (d : N) (s : tsys) (c : rcstate) : Prop := {
  rc_now : c_now c = now s;
  rc_n : c_n c = length (tasks s);
  rc_jobs : length (jobs s) = length (tasks s);
  rc_done : c_done c = src_done s;
  rc_on : src_on s = negb (src_done s) && negb (c_unsub c);
  rc_alive : c_fin c = false -> c_unsub c = false -> alive s = true;
  rc_multi : c_unsub c = false -> exists l, multi s = Some l;
  rc_armed : forall i a, armed_at i (c_armed c) = Some a -> (i < length (tasks s))%nat;
  rc_owed : c_owed c = false;
  rc_all : forall i tk, nth_error (tasks s) i = Some tk ->
             exists k e, t_body tk = BOnce k /\ nth_error (jobs s) i = Some (job_of e);
  rc_pending : forall i tk, nth_error (tasks s) i = Some tk -> pending c i = true ->
             t_keep tk = true /\ stage_ok d (c_armed c) i tk
}.

Arguments rc_now {d s c}. Arguments rc_n {d s c}. Arguments rc_alive {d s c}. Arguments rc_owed {d s c}.
Arguments rc_all {d s c}. Arguments rc_pending {d s c}.

(* cf, qf, mf compute the projections of a record *)
Ltac cf := cbn [c_now c_cur c_n c_done c_unsub c_fin c_armed c_deliv c_owed] in *.

Lemma c_skip d de ls c x : match x with TOut _ _ | TMark _ => False | _ => True end -> c_step d de ls c x = Some c.
Proof. destruct x; intros H; try contradiction; reflexivity. Qed.

Lemma pending_fields c i : pending c i = true ->
  (i < c_n c)%nat /\ memn' i (c_deliv c) = false /\ c_unsub c = false /\ c_fin c = false.
Proof.
  unfold pending. intros H.
  apply Bool.andb_true_iff in H. destruct H as [H H4]. apply Bool.andb_true_iff in H. destruct H as [H H3].
  apply Bool.andb_true_iff in H. destruct H as [H H2]. apply Nat.ltb_lt in H.
  repeat split; auto; apply Bool.negb_true_iff; assumption.
Qed.

Lemma pending_off c i : c_unsub c = true \/ c_fin c = true -> pending c i = false.
Proof. unfold pending. intros [-> | ->]; rewrite ?Bool.andb_false_r; reflexivity. Qed.

(* the invariant reads neither c_cur nor down_fin *)
Definition c_at (c : rcstate) (l : option tlab) : rcstate :=
  {| c_now := c_now c; c_cur := l; c_n := c_n c; c_done := c_done c; c_unsub := c_unsub c; c_fin := c_fin c;
     c_armed := c_armed c; c_deliv := c_deliv c; c_owed := false |}.

Lemma rc_at d s c l : RC d s c -> RC d s (c_at c l) /\ RC d (upd_fin s) (c_at c l).
Proof. intros [R1 R2 R3 R4 R5 R6 R7 R8 R9 R10 R11]. split; constructor; first [assumption|reflexivity]. Qed.

Lemma c_label_run d de c t :
  c_label d de c (Some (LRun t)) =
  let due := due_now d (c_armed c) t (c_now c) in
  {| c_now := c_now c; c_cur := Some (LRun t); c_n := c_n c; c_done := c_done c; c_unsub := c_unsub c; c_fin := c_fin c;
     c_armed := if pending c t && negb due
                then match armed_at t (c_armed c) with Some _ => c_armed c | None => (t, c_now c) :: c_armed c end
                else c_armed c;
     c_deliv := c_deliv c; c_owed := pending c t && due |}.
Proof.
  cbn [c_label]. unfold due_now. destruct (pending c t); [|reflexivity].
  destruct (armed_at t (c_armed c)); [destruct (_ <=? _)|destruct (d =? 0)]; reflexivity.
Qed.

(* the `sim` hypothesis of RelayLaws.LabelSim for c_step and RC; qsim, msim likewise *)
Definition csim (o : top) (d : N) (de : bool) (ls : list tlab) (s : tsys) (c : rcstate) (l : tlab) : Prop :=
  exists c', walk (c_step d de ls) (c_label d de c (Some l)) (snd (tstep o s l)) = Some c' /\ RC d (fst (tstep o s l)) c'.

Lemma c_adv o d de ls s c dt : RC d s c -> csim o d de ls s c (LAdv dt).
Proof.
  intros [R1 R2 R3 R4 R5 R6 R7 R8 R9 R10 R11]. unfold csim. cbn [tstep fst snd walk c_label]. eexists. split; [reflexivity|].
  constructor; cf; cbn [upd_now now tasks jobs src_done src_on alive multi]; auto. congruence.
Qed.

Lemma c_quiet o d de ls s c l : relay_op o d de -> quiet_label l -> RC d s c -> csim o d de ls s c l.
Proof.
  intros Ho Hl R. unfold csim. replace (c_label d de c (Some l)) with (c_at c (Some l)) by (destruct l; try contradiction; reflexivity).
  apply quiet_sim; auto; [destruct o; try contradiction; exact I|apply c_skip|apply rc_at, R|apply rc_at, R].
Qed.

Lemma c_unsub_label o d de ls s c : relay_op o d de -> RC d s c -> csim o d de ls s c LUnsub.
Proof.
  intros Ho [R1 R2 R3 R4 R5 R6 R7 R8 R9 R10 R11]. unfold csim.
  destruct (relay_unsub_effect o d de s Ho) as (s' & out & E & Hin & F1 & F2 & F3 & F4 & F5 & F6 & F7). rewrite E. cbn [fst snd].
  rewrite (walk_skip _ (c_skip d de ls) out _ Hin). eexists. split; [reflexivity|].
  constructor; cbn [c_label]; cf; rewrite ?F1, ?F2, ?F4, ?F5, ?F6; auto; try discriminate.
  - rewrite Bool.andb_false_r. reflexivity.
  - intros i tk' Hi. destruct (F7 i tk' Hi) as (tk & Ht & Hb & _). rewrite Hb. apply (R10 i tk Ht).
  - intros i tk' _ Hp. rewrite pending_off in Hp by (left; reflexivity). discriminate.
Qed.

(* a poll of task t: the system changes in that task (and in the slot, if a terminal went out), the walk in
   the armed entry of t, c_fin and c_deliv *)
Lemma rc_after_run d s c c' t tk tk1 s' :
  RC d s c -> nth_error (tasks s) t = Some tk ->
  now s' = now s -> jobs s' = jobs s -> src_done s' = src_done s -> src_on s' = src_on s -> multi s' = multi s ->
  tasks s' = set_nth (tasks s) t tk1 -> t_body tk1 = t_body tk ->
  c_now c' = c_now c -> c_n c' = c_n c -> c_done c' = c_done c -> c_unsub c' = c_unsub c -> c_owed c' = false ->
  (c_fin c' = false -> c_fin c = false /\ alive s' = alive s) ->
  (forall i, i <> t -> armed_at i (c_armed c') = armed_at i (c_armed c)) ->
  (forall i, pending c' i = true -> pending c i = true) ->
  (pending c' t = true -> t_keep tk1 = true /\ stage_ok d (c_armed c') t tk1) ->
  RC d s' c'.
Proof.
  intros [R1 R2 R3 R4 R5 R6 R7 R8 R9 R10 R11] Et F1 F2 F3 F4 F5 F6 Hb C1 C2 C3 C4 C5 Ha Harm Hp Ht.
  assert (Hlt : (t < length (tasks s))%nat) by (apply nth_error_Some; congruence).
  constructor; rewrite ?F1, ?F2, ?F3, ?F4, ?F5, ?F6, ?set_nth_length, ?C1, ?C2, ?C3, ?C4; auto.
  - intros Hf Hu. destruct (Ha Hf) as [Hf0 ->]. auto.
  - intros i a Hi. destruct (Nat.eq_dec i t) as [->|Hne]; [exact Hlt|]. rewrite (Harm i Hne) in Hi. apply (R8 i a Hi).
  - intros i tk' Hi. apply nth_error_set_nth in Hi. destruct Hi as [[-> ->]|[_ Hi]]; [rewrite Hb; apply (R10 t tk Et)|apply (R10 i tk' Hi)].
  - intros i tk' Hi Hpi. apply nth_error_set_nth in Hi. destruct Hi as [[-> ->]|[Hne Hi]]; [apply Ht, Hpi|].
    destruct (R11 i tk' Hi (Hp i Hpi)) as [K1 K2].
    split; [exact K1|]. unfold stage_ok in *. rewrite (Harm i Hne). exact K2.
Qed.

Lemma pending_deliver c e i : pending (c_deliver c e) i = true -> pending c i = true.
Proof.
  unfold pending, c_deliver. cf. intros H.
  apply Bool.andb_true_iff in H. destruct H as [H H4]. apply Bool.andb_true_iff in H. destruct H as [H H3].
  apply Bool.andb_true_iff in H. destruct H as [H1 H2]. rewrite H1, H3. cbn [andb].
  destruct (c_fin c); [discriminate H4|]. destruct (memn' i (c_deliv c)) eqn:E; [|reflexivity].
  destruct (c_cur c) as [[]|]; rewrite ?memn'_cons, E, ?Bool.orb_true_r in H2; discriminate H2.
Qed.

Lemma pending_deliver_self c e t : c_cur c = Some (LRun t) -> pending (c_deliver c e) t = false.
Proof.
  intros Hc. unfold pending, c_deliver. cf. rewrite Hc, memn'_cons, Nat.eqb_refl.
  cbn [orb negb]. rewrite Bool.andb_false_r. reflexivity.
Qed.

Lemma c_run o d de ls s c t : RC d s c -> csim o d de ls s c (LRun t).
Proof.
  intros R. unfold csim. rewrite c_label_run. cbn zeta.
  replace (due_now d (c_armed c) t (c_now c)) with (due_now d (c_armed c) t (now s)) by (rewrite (rc_now R); reflexivity).
  destruct (nth_error (tasks s) t) as [tk|] eqn:Et.
  2: { cbn [tstep]. rewrite Et.
    assert (Hp : pending c t = false).
    { unfold pending. rewrite (rc_n R), (proj2 (Nat.ltb_ge t (length (tasks s)))); [reflexivity|]. apply nth_error_None, Et. }
    rewrite Hp. eexists. split; [reflexivity|]. apply (rc_at d s c _ R). }
  destruct (rc_all R t tk Et) as (k & e & Hb & Hj).
  rewrite (lrun_shape o s t tk k e Et Hj Hb). cbn zeta.
  set (tk1 := fst (poll (now s) tk)) in *. set (s1 := upd_tasks s (set_nth (tasks s) t tk1)).
  pose proof (proj1 (poll_keeps (now s) tk)) as Hbb. fold tk1 in Hbb.
  (* only the armed list and what is owed vary *)
  pose (c1 := fun A O => {| c_now := c_now c; c_cur := Some (LRun t); c_n := c_n c; c_done := c_done c; c_unsub := c_unsub c;
                            c_fin := c_fin c; c_armed := A; c_deliv := c_deliv c; c_owed := O |}).
  assert (Quiet : forall A, (forall i, i <> t -> armed_at i A = armed_at i (c_armed c)) ->
            (pending c t = true -> t_keep tk1 = true /\ stage_ok d A t tk1) ->
            exists c', walk (c_step d de ls) (c1 A false) [] = Some c' /\ RC d s1 c').
  { intros A HA Ht. exists (c1 A false). split; [reflexivity|].
    apply (rc_after_run d s c (c1 A false) t tk tk1 s1 R Et); auto. }
  assert (Loud : forall A O, (forall i, i <> t -> armed_at i A = armed_at i (c_armed c)) ->
            exists c', walk (c_step d de ls) (c1 A O) [TOut (now s) e] = Some c' /\
                       RC d (if is_term e then upd_alive s1 false else s1) c').
  { intros A O HA. cbn [walk c_step]. eexists. split; [reflexivity|].
    apply (rc_after_run d s c (c_deliver (c1 A O) e) t tk tk1 _ R Et); try (destruct (is_term e); reflexivity); auto.
    - unfold c_deliver. cf. intros Hf. apply Bool.orb_false_iff in Hf. destruct Hf as [Hf1 Hf2].
      rewrite Hf2. split; [exact Hf1|reflexivity].
    - intros i Hi. apply (pending_deliver (c1 A O) e i Hi).
    - intros Hp. rewrite (pending_deliver_self (c1 A O) e t eq_refl) in Hp. discriminate. }
  destruct (pending c t) eqn:Ep; cbn [andb].
  - destruct (rc_pending R t tk Et Ep) as [Hk Hs].
    destruct (pending_fields c t Ep) as (Hlt & Hm & Hu & Hf).
    pose proof (poll_pending (now s) tk k d (c_armed c) t Hk Hb Hs) as P. fold tk1 in P.
    destruct (due_now d (c_armed c) t (now s)); cbn [negb].
    + rewrite P, (rc_alive R Hf Hu). apply Loud. auto.
    + destruct P as (P1 & P2 & P3). rewrite P1. rewrite <- (rc_now R) in P3. apply Quiet; [|intros _; split; assumption].
      intros i Hi. destruct (armed_at t (c_armed c)); [reflexivity|apply armed_at_cons_other, Hi].
  - (* nothing is owed: whatever the poll does *)
    destruct (snd (poll (now s) tk)); [apply Quiet|destruct (alive s); [apply Loud|apply Quiet]]; auto; discriminate.
Qed.

Lemma rc_spawn d s c e delay l cur :
  RC d s c -> c_unsub c = false -> delay_is d delay ->
  RC d (spawned s e delay l)
     {| c_now := c_now c; c_cur := cur; c_n := S (c_n c); c_done := is_term e; c_unsub := false; c_fin := c_fin c;
        c_armed := c_armed c; c_deliv := c_deliv c; c_owed := false |}.
Proof.
  intros [R1 R2 R3 R4 R5 R6 R7 R8 R9 R10 R11] Hu Hd.
  constructor; cf; unfold spawned; cbn [schedule fst upd_multi upd_src now tasks jobs src_done src_on alive multi];
    rewrite ?app_length; cbn [length]; auto.
  - lia.
  - rewrite Bool.andb_true_r. reflexivity.
  - eauto.
  - intros i a Hi. pose proof (R8 i a Hi). lia.
  - intros i tk Hi. apply nth_error_snoc in Hi. destruct Hi as [[Hlt Hi]|[-> ->]].
    + destruct (R10 i tk Hi) as (k & e0 & K1 & K2). exists k, e0. split; [exact K1|].
      rewrite nth_error_app1; [exact K2|]. rewrite R3. exact Hlt.
    + exists (length (tasks s)), e. split; [reflexivity|]. rewrite <- R3. apply nth_error_app_last.
  - intros i tk Hi Hp. apply nth_error_snoc in Hi. destruct Hi as [[Hlt Hi]|[-> ->]].
    + apply (R11 i tk Hi). unfold pending in *. cf. rewrite Hu, R2, (proj2 (Nat.ltb_lt i (length (tasks s))) Hlt).
      apply Bool.andb_true_iff in Hp. destruct Hp as [Hp H4]. apply Bool.andb_true_iff in Hp. destruct Hp as [Hp H3].
      apply Bool.andb_true_iff in Hp. destruct Hp as [_ H2]. rewrite H2, H4. reflexivity.
    + split; [reflexivity|].
      assert (Hn : armed_at (length (tasks s)) (c_armed c) = None).
      { destruct (armed_at (length (tasks s)) (c_armed c)) as [a|] eqn:Ea; [|reflexivity]. pose proof (R8 _ a Ea). lia. }
      unfold stage_ok, spawn. cbn [t_stage]. destruct delay as [d'|]; cbn in Hd; subst; split; auto.
Qed.

Lemma c_src o d de ls s c e : relay_op o d de -> RC d s c -> csim o d de ls s c (LSrc e).
Proof.
  intros Ho R. pose proof R as [R1 R2 R3 R4 R5 R6 R7 R8 R9 R10 R11]. unfold csim. cbn [c_label]. rewrite R4.
  destruct (src_done s) eqn:Ed.
  - cbn [tstep]. rewrite Ed. eexists. split; [reflexivity|]. constructor; cf; cbn [fst]; auto. rewrite Ed. exact R5.
  - cbn [negb andb] in R5. destruct (src_on s) eqn:Eo.
    + assert (Hu : c_unsub c = false) by (destruct (c_unsub c); [discriminate|reflexivity]).
      rewrite Hu. destruct (R7 Hu) as (l & Hl).
      change (own_task de e) with (keepb de e). destruct (keepb de e) eqn:Ek.
      * rewrite (relay_accepts o d de s e l Ho Eo Ed Ek Hl). eexists. split; [reflexivity|].
        apply (rc_spawn d s c e _ l _ R Hu), (relay_op_delay o d de Ho).
      * (* delay forwards an error at once *)
        destruct (keepb_false de e Ek) as [-> [x ->]].
        destruct o; cbn [relay_op] in Ho; try contradiction; [|destruct Ho; discriminate]. destruct Ho as [-> _].
        rewrite (delay_forwards d s x Eo Ed). unfold slot_term. cbn [upd_src alive now].
        destruct (alive s) eqn:Ea; cbn [fst snd walk c_step].
        -- eexists. split; [reflexivity|]. unfold c_deliver. cf.
           constructor; cf; cbn [upd_alive upd_src now tasks jobs src_done src_on alive multi is_term];
             rewrite ?Bool.orb_true_r; auto; try discriminate.
           intros i tk _ Hp. rewrite pending_off in Hp by (right; reflexivity). discriminate.
        -- assert (Hf : c_fin c = true) by (destruct (c_fin c) eqn:Ef; [reflexivity|discriminate (R6 eq_refl Hu)]).
           rewrite Hf. eexists. split; [reflexivity|].
           constructor; cf; cbn [upd_src now tasks jobs src_done src_on alive multi]; rewrite ?Hf; auto; try discriminate.
           intros i tk _ Hp. rewrite pending_off in Hp by (right; reflexivity). discriminate.
    + assert (Hu : c_unsub c = true) by (destruct (c_unsub c); [reflexivity|discriminate]).
      rewrite Hu. cbn [tstep]. rewrite Ed, Eo. eexists. split; [reflexivity|].
      constructor; cf; try discriminate; destruct (is_term e); cbn [fst upd_src now tasks jobs src_done src_on alive multi]; auto;
        try (rewrite ?Eo, Bool.andb_false_r; reflexivity);
        intros i tk _ Hp; rewrite pending_off in Hp by (left; reflexivity); discriminate.
Qed.

Lemma rc_init o d de : relay_op o d de -> RC d (tinit o) rc0.
Proof.
  intros Ho. destruct o; try contradiction; cbn [tinit];
    (constructor; cbn; auto; try discriminate; eauto; intros [|i] tk Hi; discriminate).
Qed.

Lemma relay_is_complete o d de : relay_op o d de -> forall ls, relay_complete d de ls (run_timed o ls) = true.
Proof.
  intros Ho ls. unfold relay_complete.
  destruct (label_sim (c_step d de) (c_label d de) o (fun _ => RC d)) with (ls := ls) (w := rc0) as (c' & s' & -> & R).
  - intros ls' _ s c j R. cbn [c_step]. rewrite (rc_owed R). reflexivity.
  - intros ls' _ s c l R. destruct l; try (apply c_quiet; [exact Ho|exact I|exact R]).
    + apply c_src; assumption.
    + apply c_run; assumption.
    + apply c_adv; assumption.
    + apply c_unsub_label; assumption.
  - apply (rc_init o d de Ho).
  - rewrite (rc_owed R). reflexivity.
Qed.

(* a notification whose task is polled when due while the subscriber still listens is delivered: for EVERY
   sequence of labels *)
Theorem delay_is_complete : forall d ls, relay_complete d true ls (run_timed (TDelay d) ls) = true.
Proof. intros d. apply (relay_is_complete (TDelay d) d true). split; reflexivity. Qed.

Theorem observe_on_is_complete : forall ls, relay_complete 0 false ls (run_timed TObserveOn ls) = true.
Proof. apply (relay_is_complete TObserveOn 0 false). split; reflexivity. Qed.

(* the predicate does reject: the completion's task is polled, due, and nothing comes out (an operator that
   drops the completion of an idle stream) *)
Example complete_rejects_a_lost_completion :
  relay_complete 0 true [LSrc Done; LRun 0] [TMark 0; TMark 1] = false.
Proof. reflexivity. Qed.

Example complete_accepts_the_delivery :
  relay_complete 0 true [LSrc Done; LRun 0] [TMark 0; TMark 1; TOut 0 Done] = true.
Proof. reflexivity. Qed.

(* before the timer has elapsed nothing is owed; at the poll that follows its expiry it is *)
Example complete_waits_for_the_timer :
  relay_complete 5 true [LSrc (Next (VZ 1)); LRun 0; LAdv 4; LRun 0; LAdv 1; LRun 0]
    [TMark 0; TMark 1; TMark 2; TMark 3; TMark 4; TMark 5; TOut 5 (Next (VZ 1))] = true /\
  relay_complete 5 true [LSrc (Next (VZ 1)); LRun 0; LAdv 4; LRun 0; LAdv 1; LRun 0]
    [TMark 0; TMark 1; TMark 2; TMark 3; TMark 4; TMark 5] = false.
Proof. split; reflexivity. Qed.

(* the armed list of a system with one task *)
Definition alist (a : option N) : list (nat * N) := match a with Some x => [(0%nat, x)] | None => [] end.

Definition arm (a : option N) (now : N) : option N := match a with Some x => Some x | None => Some now end.

(* delay_subscription / subscribe_on against pass_complete: until the walk has seen the subscribing task run the
   task is kept and stands where q_armed says; afterwards the input is connected unless it has terminated *)
Record RQ (d : N) (s : tsys) (q : qstate) : Prop := {
  rq_now : q_now q = now s;
  rq_done : q_done q = src_done s;
  rq_jobs : jobs s = [JSubscribe];
  rq_main : main_task s = Some 0%nat;
  rq_owed : q_owed q = false;
  rq_on : q_sub q = true -> q_unsub q = false -> src_done s = false -> src_on s = true;
  rq_task : exists tk k, tasks s = [tk] /\ t_body tk = BOnce k /\
      (q_sub q = false -> q_unsub q = false -> t_keep tk = true /\ stage_ok d (alist (q_armed q)) 0 tk)
}.

Arguments rq_owed {d s q}.

Ltac qf := cbn [q_now q_cur q_sub q_done q_unsub q_armed q_owed] in *.

Lemma q_skip d ls q x : match x with TOut _ _ | TMark _ => False | _ => True end -> q_step d ls q x = Some q.
Proof. destruct x; intros H; try contradiction; reflexivity. Qed.

Definition q_at (q : qstate) (l : option tlab) : qstate :=
  {| q_now := q_now q; q_cur := l; q_sub := q_sub q; q_done := q_done q; q_unsub := q_unsub q;
     q_armed := q_armed q; q_owed := false |}.

Lemma rq_at d s q l : RQ d s q -> RQ d s (q_at q l) /\ RQ d (upd_fin s) (q_at q l).
Proof. intros [R1 R2 R3 R4 R5 R6 R7]. split; constructor; first [assumption|reflexivity]. Qed.

Lemma q_label_run d q :
  q_label d q (Some (LRun 0)) =
  let wait := negb (q_sub q) && negb (q_unsub q) in
  let due := due_now d (alist (q_armed q)) 0 (q_now q) in
  {| q_now := q_now q; q_cur := Some (LRun 0); q_sub := if wait then due else q_sub q; q_done := q_done q;
     q_unsub := q_unsub q; q_armed := if wait && negb due then arm (q_armed q) (q_now q) else q_armed q; q_owed := false |}.
Proof.
  cbn [q_label]. unfold due_now. destruct (negb (q_sub q) && negb (q_unsub q)); [|reflexivity].
  destruct (q_armed q) as [a|]; cbn [alist armed_at Nat.eqb]; [destruct (a + d <=? q_now q)|destruct (d =? 0)]; reflexivity.
Qed.

Definition qsim (o : top) (d : N) (ls : list tlab) (s : tsys) (q : qstate) (l : tlab) : Prop :=
  exists q', walk (q_step d ls) (q_label d q (Some l)) (snd (tstep o s l)) = Some q' /\ RQ d (fst (tstep o s l)) q'.

Lemma q_src o d ls s q e : pass_op o d -> RQ d s q -> qsim o d ls s q (LSrc e).
Proof.
  intros Ho [R1 R2 R3 R4 R5 R6 (tk & k & T1 & T2 & T3)]. unfold qsim. cbn [tstep q_label]. rewrite R2.
  destruct (src_done s) eqn:Ed.
  - cbn [fst snd walk]. eexists. split; [reflexivity|]. constructor; qf; auto.
    + intros _ _ H. rewrite Ed in H. discriminate.
    + exists tk, k. auto.
  - destruct (src_on s) eqn:Eo.
    + rewrite (pass_on_src o d _ e Ho). cbn [fst snd walk q_step]. eexists. split; [reflexivity|]. unfold q_deliver.
      constructor; qf; destruct (is_term e) eqn:Et; cbn [upd_src now tasks jobs src_done src_on main_task]; auto;
        try (intros _ _ H; discriminate H); try (exists tk, k; auto).
    + (* not subscribed to the input: nothing can be owed *)
      assert (Hno : q_sub q && negb (q_unsub q) = false).
      { destruct (q_sub q) eqn:E1; [|reflexivity]. destruct (q_unsub q) eqn:E2; [reflexivity|].
        pose proof (R6 eq_refl eq_refl eq_refl) as H. discriminate H. }
      rewrite Hno. cbn [fst snd walk]. eexists. split; [reflexivity|].
      constructor; qf; destruct (is_term e) eqn:Et; cbn [upd_src now tasks jobs src_done src_on main_task]; auto;
        try (intros _ _ H; discriminate H); try (exists tk, k; auto).
      intros H1 H2 _. rewrite H1, H2 in Hno. discriminate.
Qed.

Lemma q_run o d ls s q t : RQ d s q -> qsim o d ls s q (LRun t).
Proof.
  intros [R1 R2 R3 R4 R5 R6 (tk & k & T1 & T2 & T3)]. unfold qsim.
  destruct t as [|t].
  2: { rewrite (solo_idle o s tk t T1). cbn [fst snd walk q_label]. eexists. split; [reflexivity|].
    constructor; qf; auto. exists tk, k. auto. }
  rewrite (solo_run o s tk JSubscribe k T1 R3 T2), q_label_run, R1. cbn zeta. cbn [on_job fst snd].
  pose proof (proj1 (poll_keeps (now s) tk)) as Hb1. rewrite T2 in Hb1.
  destruct (negb (q_sub q) && negb (q_unsub q)) eqn:Ewait; cbn [andb].
  - apply Bool.andb_true_iff in Ewait. destruct Ewait as [E1 E2].
    apply Bool.negb_true_iff in E1. apply Bool.negb_true_iff in E2.
    destruct (T3 E1 E2) as [Hk Hs].
    pose proof (poll_pending (now s) tk k d (alist (q_armed q)) 0 Hk T2 Hs) as P.
    destruct (due_now d (alist (q_armed q)) 0 (now s)); cbn [negb].
    + rewrite P. eexists. split; [reflexivity|].
      constructor; qf; cbn [fst upd_src upd_tasks now tasks jobs src_done src_on main_task]; auto.
      eexists _, k. repeat split; auto; discriminate.
    + destruct P as (P1 & P2 & P3). rewrite P1. eexists. split; [reflexivity|].
      constructor; qf; cbn [fst upd_tasks now tasks jobs src_done src_on main_task]; auto; [discriminate|].
      eexists _, k. repeat split; auto. destruct (q_armed q); exact P3.
  - (* whatever the poll does *)
    assert (Hvac : q_sub q = false -> q_unsub q = false -> False).
    { intros H1 H2. rewrite H1, H2 in Ewait. discriminate. }
    destruct (snd (poll (now s) tk)); (eexists; split; [reflexivity|]);
      constructor; qf; cbn [fst upd_src upd_tasks now tasks jobs src_done src_on main_task]; auto;
      eexists _, k; (split; [reflexivity|]); (split; [exact Hb1|]); intros H1 H2; destruct (Hvac H1 H2).
Qed.

Lemma q_unsub_label o d ls s q : pass_op o d -> RQ d s q -> qsim o d ls s q LUnsub.
Proof.
  intros Ho [R1 R2 R3 R4 R5 R6 (tk & k & T1 & T2 & T3)]. unfold qsim.
  rewrite (pass_unsub_eq o d s Ho). unfold unsub_main. rewrite R4, (solo_unsub o s tk JSubscribe T1 R3) by discriminate.
  cbn [subscribing andb fst snd walk q_label]. eexists. split; [reflexivity|].
  constructor; qf; try discriminate; try (destruct (t_value tk); auto; fail).
  exists (cancel tk), k. split; [destruct (t_value tk); reflexivity|]. split; [exact T2|]. intros _ H. discriminate H.
Qed.

Lemma q_adv o d ls s q dt : RQ d s q -> qsim o d ls s q (LAdv dt).
Proof.
  intros [R1 R2 R3 R4 R5 R6 (tk & k & T1 & T2 & T3)]. unfold qsim. cbn [tstep fst snd walk q_label]. eexists. split; [reflexivity|].
  constructor; qf; cbn [upd_now now tasks jobs src_done src_on main_task]; auto; [congruence|exists tk, k; auto].
Qed.

Lemma q_quiet o d ls s q l : pass_op o d -> quiet_label l -> RQ d s q -> qsim o d ls s q l.
Proof.
  intros Ho Hl R. unfold qsim. replace (q_label d q (Some l)) with (q_at q (Some l)) by (destruct l; try contradiction; reflexivity).
  apply quiet_sim; auto; [destruct o; try contradiction; exact I|apply q_skip|apply rq_at, R|apply rq_at, R].
Qed.

Lemma rq_init o d : pass_op o d -> RQ d (tinit o) q0.
Proof.
  intros Ho. destruct o; cbn [pass_op] in Ho; try contradiction; cbn [tinit schedule upd_main upd_src];
    (constructor; cbn; auto; try discriminate;
     eexists; eexists; split; [reflexivity|]; split; [reflexivity|]; intros _ _; split; [reflexivity|];
     unfold stage_ok; cbn; auto).
Qed.

Lemma pass_is_complete o d : pass_op o d -> forall ls, pass_complete d ls (run_timed o ls) = true.
Proof.
  intros Ho ls. unfold pass_complete.
  destruct (label_sim (q_step d) (q_label d) o (fun _ => RQ d)) with (ls := ls) (w := q0) as (q' & s' & -> & R).
  - intros ls' _ s q j R. cbn [q_step]. rewrite (rq_owed R). reflexivity.
  - intros ls' _ s q l R. destruct l; try (apply q_quiet; [exact Ho|exact I|exact R]).
    + apply q_src; assumption.
    + apply q_run; assumption.
    + apply q_adv; assumption.
    + apply q_unsub_label; assumption.
  - apply rq_init, Ho.
  - rewrite (rq_owed R). reflexivity.
Qed.

(* once the subscribing task has been polled when due, every notification of the input reaches the subscriber
   in the call that brings it *)
Theorem delay_subscription_is_complete : forall d ls, pass_complete d ls (run_timed (TDelaySubscription d) ls) = true.
Proof. intros d. apply (pass_is_complete (TDelaySubscription d) d). reflexivity. Qed.

Theorem subscribe_on_is_complete : forall ls, pass_complete 0 ls (run_timed TSubscribeOn ls) = true.
Proof. apply (pass_is_complete TSubscribeOn 0). reflexivity. Qed.

Example pass_complete_rejects_a_swallowed_item :
  pass_complete 3 [LRun 0; LAdv 3; LRun 0; LSrc (Next (VZ 7))] [TMark 0; TMark 1; TMark 2; TMark 3] = false /\
  pass_complete 3 [LRun 0; LAdv 3; LRun 0; LSrc (Next (VZ 7))] [TMark 0; TMark 1; TMark 2; TMark 3; TOut 3 (Next (VZ 7))] = true /\
  (* not yet subscribed: nothing is owed *)
  pass_complete 3 [LRun 0; LAdv 2; LRun 0; LSrc (Next (VZ 7))] [TMark 0; TMark 1; TMark 2; TMark 3] = true.
Proof. repeat split; reflexivity. Qed.

(* timer and the walking state of timer_complete: as RQ, without an input *)
Record RM (d : N) (v : val) (s : tsys) (m : mstate) : Prop := {
  rm_now : m_now m = now s;
  rm_jobs : jobs s = [JTimer v];
  rm_main : main_task s = Some 0%nat;
  rm_on : src_on s = false;
  rm_owed : m_owed m = 0%nat;
  rm_task : exists tk k, tasks s = [tk] /\ t_body tk = BOnce k /\
      (m_ran m = false -> m_unsub m = false -> t_keep tk = true /\ stage_ok d (alist (m_armed m)) 0 tk)
}.

Arguments rm_on {d v s m}. Arguments rm_owed {d v s m}.

Ltac mf := cbn [m_now m_ran m_unsub m_armed m_owed] in *.

Lemma m_skip d ls m x : match x with TOut _ _ | TMark _ => False | _ => True end -> m_step d ls m x = Some m.
Proof. destruct x; intros H; try contradiction; reflexivity. Qed.

Definition m_at (m : mstate) : mstate :=
  {| m_now := m_now m; m_ran := m_ran m; m_unsub := m_unsub m; m_armed := m_armed m; m_owed := 0 |}.

(* the invariant reads neither down_fin nor src_done *)
Lemma rm_at d v s m s' :
  RM d v s m -> now s' = now s -> tasks s' = tasks s -> jobs s' = jobs s -> main_task s' = main_task s -> src_on s' = false ->
  RM d v s' (m_at m).
Proof. intros [R1 R2 R3 R4 R5 R6] S1 S2 S3 S4 S5. constructor; rewrite ?S1, ?S2, ?S3, ?S4; first [assumption|reflexivity]. Qed.

Lemma m_label_run d m :
  m_label d m (Some (LRun 0)) =
  let wait := negb (m_ran m) && negb (m_unsub m) in
  let due := due_now d (alist (m_armed m)) 0 (m_now m) in
  {| m_now := m_now m; m_ran := if wait then due else m_ran m; m_unsub := m_unsub m;
     m_armed := if wait && negb due then arm (m_armed m) (m_now m) else m_armed m; m_owed := if wait && due then 2 else 0 |}.
Proof.
  cbn [m_label]. unfold due_now. destruct (negb (m_ran m) && negb (m_unsub m)); [|reflexivity].
  destruct (m_armed m) as [a|]; cbn [alist armed_at Nat.eqb]; [destruct (a + d <=? m_now m)|destruct (d =? 0)]; reflexivity.
Qed.

Definition msim (d : N) (v : val) (ls : list tlab) (s : tsys) (m : mstate) (l : tlab) : Prop :=
  exists m', walk (m_step d ls) (m_label d m (Some l)) (snd (tstep (TTimer v d) s l)) = Some m' /\
             RM d v (fst (tstep (TTimer v d) s l)) m'.

Lemma m_run d v ls s m t : RM d v s m -> msim d v ls s m (LRun t).
Proof.
  intros [R1 R2 R3 R4 R5 (tk & k & T1 & T2 & T3)]. unfold msim.
  destruct t as [|t].
  2: { rewrite (solo_idle _ s tk t T1). cbn [fst snd walk m_label]. eexists. split; [reflexivity|].
    constructor; mf; auto. exists tk, k. auto. }
  rewrite (solo_run _ s tk (JTimer v) k T1 R2 T2), m_label_run, R1. cbn zeta. cbn [on_job fst snd].
  pose proof (proj1 (poll_keeps (now s) tk)) as Hb1. rewrite T2 in Hb1.
  destruct (negb (m_ran m) && negb (m_unsub m)) eqn:Ewait; cbn [andb].
  - apply Bool.andb_true_iff in Ewait. destruct Ewait as [E1 E2].
    apply Bool.negb_true_iff in E1. apply Bool.negb_true_iff in E2.
    destruct (T3 E1 E2) as [Hk Hs].
    pose proof (poll_pending (now s) tk k d (alist (m_armed m)) 0 Hk T2 Hs) as P.
    destruct (due_now d (alist (m_armed m)) 0 (now s)); cbn [negb].
    + rewrite P. cbn [walk m_step]. mf. cbn [Nat.pred]. eexists. split; [reflexivity|].
      constructor; mf; cbn [upd_tasks now tasks jobs src_on main_task]; auto.
      eexists _, k. repeat split; auto; discriminate.
    + destruct P as (P1 & P2 & P3). rewrite P1. eexists. split; [reflexivity|].
      constructor; mf; cbn [upd_tasks now tasks jobs src_on main_task]; auto.
      eexists _, k. repeat split; auto. destruct (m_armed m); exact P3.
  - assert (Hvac : m_ran m = false -> m_unsub m = false -> False).
    { intros H1 H2. rewrite H1, H2 in Ewait. discriminate. }
    destruct (snd (poll (now s) tk)); cbn [walk m_step]; mf; cbn [Nat.pred]; (eexists; split; [reflexivity|]);
      constructor; mf; cbn [upd_tasks now tasks jobs src_on main_task]; auto;
      eexists _, k; (split; [reflexivity|]); (split; [exact Hb1|]); intros H1 H2; destruct (Hvac H1 H2).
Qed.

Lemma m_unsub_label d v ls s m : RM d v s m -> msim d v ls s m LUnsub.
Proof.
  intros [R1 R2 R3 R4 R5 (tk & k & T1 & T2 & T3)]. unfold msim.
  cbn [tstep on_unsub]. rewrite R3, (solo_unsub _ s tk (JTimer v) T1 R2) by discriminate.
  cbn [subscribing andb fst snd walk m_label]. eexists. split; [reflexivity|].
  constructor; mf; auto. exists (cancel tk), k. split; [reflexivity|]. split; [exact T2|]. intros _ H. discriminate H.
Qed.

Lemma m_sim d v ls s m l : RM d v s m -> msim d v ls s m l.
Proof.
  intros R. pose proof (rm_on R) as Hon.
  destruct l; try (apply quiet_sim; [exact I|exact I|apply m_skip|apply (rm_at d v s m s R); auto|apply (rm_at d v s m _ R); auto]).
  - unfold msim. cbn [tstep]. rewrite Hon. change (m_label d m (Some (LSrc e))) with (m_at m).
    destruct (src_done s); cbn [fst snd walk]; eexists; (split; [reflexivity|]); apply (rm_at d v s m _ R); auto;
      destruct (is_term e); auto.
  - apply m_run, R.
  - destruct R as [R1 R2 R3 R4 R5 (tk & k & T1 & T2 & T3)]. unfold msim. cbn [tstep fst snd walk m_label]. eexists. split; [reflexivity|].
    constructor; mf; cbn [upd_now now tasks jobs src_on main_task]; auto; [congruence|exists tk, k; auto].
  - apply m_unsub_label, R.
Qed.

Lemma rm_init d v : RM d v (tinit (TTimer v d)) m0.
Proof.
  cbn [tinit schedule upd_main upd_src]. constructor; cbn; auto.
  eexists. eexists. split; [reflexivity|]. split; [reflexivity|]. intros _ _. split; [reflexivity|].
  unfold stage_ok. cbn. auto.
Qed.

(* timer: polled when due, before unsubscribe(), it emits and completes in that poll *)
Theorem timer_is_complete : forall v d ls, timer_complete d ls (run_timed (TTimer v d) ls) = true.
Proof.
  intros v d ls. unfold timer_complete.
  destruct (label_sim (m_step d) (m_label d) (TTimer v d) (fun _ => RM d v)) with (ls := ls) (w := m0) as (m' & s' & -> & R).
  - intros ls' _ s m j R. cbn [m_step]. rewrite (rm_owed R). reflexivity.
  - intros ls' _ s m l R. apply m_sim, R.
  - apply rm_init.
  - rewrite (rm_owed R). reflexivity.
Qed.

Theorem timed_complete_holds : forall o ls, timed_complete o ls (run_timed o ls) = true.
Proof.
  intros o ls. destruct o; try reflexivity; cbn [timed_complete];
    [apply delay_is_complete|apply observe_on_is_complete|apply delay_subscription_is_complete|apply subscribe_on_is_complete
    |apply timer_is_complete].
Qed.

Example timer_complete_rejects_a_lost_completion :
  timer_complete 2 [LRun 0; LAdv 2; LRun 0] [TMark 0; TMark 1; TMark 2; TOut 2 (Next (VZ 9))] = false /\
  timer_complete 2 [LRun 0; LAdv 2; LRun 0] [TMark 0; TMark 1; TMark 2; TOut 2 (Next (VZ 9)); TOut 2 Done] = true /\
  timer_complete 2 [LRun 0; LAdv 1; LRun 0] [TMark 0; TMark 1; TMark 2] = true.
Proof. repeat split; reflexivity. Qed.
