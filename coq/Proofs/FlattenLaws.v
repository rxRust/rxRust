(* Flattening, for every stimulus sequence and every limit >= 1 or unbounded: no nesting beyond
   the fuel (flatten_no_stuck), the limit is honoured at every instant (flatten_limit), the
   downstream grammar (flatten_wf); and, over the reachable states `reach`, completion not before
   (flatten_done_sound) and not after (flatten_done_complete) everything is done, and the
   counter is exact (flatten_count_exact).  The trace predicate completion_ok of FlattenSpec is
   not what is proved here. *)
From RxSpec Require Import FlattenSpec.

Local Open Scope nat_scope.
Local Arguments Nat.leb : simpl never.

(* the items, then the closing: the shape cold_expect has in Spec/FlattenItems.v *)
Lemma cold_go_eq on_done k s sc :
  f_alive s = true ->
  cold_go on_done k s sc =
  let c := match term_of sc with
           | TNone => (s, [])
           | TErr e => (upd_alive s false, [FTerm (Err e)])
           | TDone => on_done s
           end in
  (fst c, map (FItem k) (items_of sc) ++ snd c).
Proof.
  intros Ha. induction sc as [|[v|e|] r IH]; cbn [cold_go term_of items_of map app].
  - reflexivity.
  - unfold inner_next. rewrite Ha, IH. reflexivity.
  - unfold inner_error. rewrite Ha. reflexivity.
  - destruct (on_done s). reflexivity.
Qed.

Lemma hot_event_dead s ts e : f_alive s = false -> hot_event s ts e = (s, []).
Proof.
  intros Ha. induction ts as [|k r IH]; [reflexivity|]. cbn [hot_event].
  destruct e as [v|x|]; [unfold inner_next|unfold inner_error|unfold inner_done, done_with];
    rewrite ?Ha, IH; reflexivity.
Qed.

Lemma hot_next_out v : forall ts s,
  hot_event s ts (Next v) = (s, if f_alive s then map (fun k => FItem k v) ts else []).
Proof.
  induction ts as [|k r IH]; intros s; [cbn; destruct (f_alive s); reflexivity|].
  cbn [hot_event]. unfold inner_next. rewrite IH. destruct (f_alive s); reflexivity.
Qed.

(* the first observer of a failing subject takes the output down; the others find it dead *)
Lemma hot_err_out x k ts s :
  f_alive s = true -> hot_event s (k :: ts) (Err x) = (upd_alive s false, [FTerm (Err x)]).
Proof.
  intros Ha. cbn [hot_event]. unfold inner_error. rewrite Ha, hot_event_dead; reflexivity.
Qed.

(* Induction along the recursion of the model.  Subscribing a synchronous inner observable
   whose script says Done ends in a completion (done_with), and a completion hands the slot to
   the oldest waiting inner observable by subscribing it; the fuel, one more than the queue is
   long, is never used up.  PS speaks of a subscription, PD of a completion. *)
Section Cascade.
Variables (PS : fstate -> nat -> iobs -> fstate * list fout -> Prop)
          (PD : fstate -> nat -> fstate * list fout -> Prop).

Definition Subs (fuel : nat) : Prop :=
  forall s k i, f_alive s = true -> length (f_queue s) < fuel -> PS s k i (start fuel s k i).

Definition Dones (fuel : nat) : Prop :=
  forall s k, f_alive s = true -> length (f_queue s) <= fuel -> PD s k (done_with (start fuel) s k).

Definition Cascade (fuel : nat) : Prop := Subs fuel /\ Dones fuel.

Lemma cascade_ind :
  (forall s k id, f_alive s = true -> PS s k (IHot id) (upd_active s (f_active s ++ [(id, k)]), [FSubscribed k])) ->
  (forall s k sc c, f_alive s = true ->
     match term_of sc with
     | TNone => c = (s, [])
     | TErr e => c = (upd_alive s false, [FTerm (Err e)])
     | TDone => PD s k c
     end -> PS s k (ICold sc) (fst c, FSubscribed k :: map (FItem k) (items_of sc) ++ snd c)) ->
  (forall s k, f_alive s = true -> f_queue s = [] -> PD s k (release_slot s k)) ->
  (forall s k k' i' q r, f_alive s = true -> f_queue s = (k', i') :: q ->
     PS (upd_queue s q) k' i' r -> PD s k (fst r, FInnerDone k :: snd r)) ->
  forall fuel, Cascade fuel.
Proof.
  intros Hhot Hcold Hrel Hnext.
  assert (Hdone : forall fuel, Subs fuel -> Dones fuel).
  { intros fuel HS s k Ha Hf. unfold done_with. rewrite Ha.
    destruct (f_queue s) as [|[k' i'] q] eqn:Eq; [apply Hrel; assumption|].
    specialize (HS (upd_queue s q) k' i' Ha ltac:(cbn [upd_queue f_queue]; cbn [length] in Hf; lia)).
    destruct (start fuel (upd_queue s q) k' i') as [s1 o1]. apply (Hnext s k k' i' q (s1, o1) Ha Eq HS). }
  induction fuel as [|fuel' [_ IHd]]; [split; [|apply Hdone]; intros s k i Ha Hf; lia|].
  assert (HS : Subs (S fuel')).
  { intros s k i Ha Hf. destruct i as [sc|id]; cbn [start]; [|apply Hhot, Ha].
    rewrite cold_go_eq by exact Ha. apply Hcold; [exact Ha|].
    destruct (term_of sc); [reflexivity|apply IHd; [exact Ha|lia]|reflexivity]. }
  split; [exact HS|apply Hdone, HS].
Qed.
End Cascade.

Lemma fstep_dead n s st :
  f_alive s = false -> snd (fstep n s st) = [] /\ f_alive (fst (fstep n s st)) = false.
Proof.
  intros Ha. destruct st as [[i|x|]|id e|]; cbn [fstep]; rewrite ?Ha; cbn [fst snd]; auto.
  destruct (memn id (f_hot_done s)); cbn [fst snd]; auto.
  destruct (is_term e); rewrite hot_event_dead by exact Ha; cbn [fst snd]; auto.
Qed.

(* frun hands st to fstep: not an outer stimulus after the outer terminal, not unsubscribe() *)
Definition reaches (live : bool) (st : fstim) : Prop :=
  match st with FOuter _ => live = true | FInner _ _ => True | FUnsub => False end.

(* the outer stream is live after st: it was, and st is not its terminal *)
Definition live_after (live : bool) (st : fstim) : bool :=
  match st with FOuter (ONext _) => true | FOuter _ => false | _ => live end.

Lemma frun_ind n (P : fstate -> bool -> nat -> list fstim -> list fout -> Prop) :
  (forall s live j, P s live j [] []) ->
  (forall s live j r, P s live j (FUnsub :: r) (map FMark (seq j (S (length r))))) ->
  (forall s j e r out, P s false (S j) r out -> P s false j (FOuter e :: r) (FMark j :: out)) ->
  (forall s live j st r out, reaches live st -> P (fst (fstep n s st)) (live_after live st) (S j) r out ->
     P s live j (st :: r) (FMark j :: snd (fstep n s st) ++ out)) ->
  forall sts s live j, P s live j sts (frun n s live j sts).
Proof.
  intros Hnil Hunsub Hskip Hstep. induction sts as [|st r IH]; intros s live j; [apply Hnil|].
  cbn [frun]. destruct st as [e|id e|]; [destruct live; [|apply Hskip, IH]| |apply Hunsub].
  - specialize (Hstep s true j (FOuter e) r _ eq_refl (IH _ _ _)). destruct (fstep n s (FOuter e)). exact Hstep.
  - specialize (Hstep s live j (FInner id e) r _ I (IH _ _ _)). destruct (fstep n s (FInner id e)). exact Hstep.
Qed.

Lemma filter_length_le {A} (f : A -> bool) l : length (filter f l) <= length l.
Proof. induction l as [|x l IH]; cbn; [lia|]. destruct (f x); cbn; lia. Qed.

Lemma no_stuck_app a b : no_stuck (a ++ b) = no_stuck a && no_stuck b.
Proof. apply forallb_app. Qed.

Lemma balance_app b x y : balance b (x ++ y) = balance (balance b x) y.
Proof. revert b. induction x as [|o r IH]; intros b; [reflexivity|]. destruct o; cbn; apply IH. Qed.

Lemma peak_app n b x y : peak_ok n b (x ++ y) = peak_ok n b x && peak_ok n (balance b x) y.
Proof.
  revert b. induction x as [|o r IH]; intros b; [reflexivity|].
  destruct o; cbn; rewrite ?IH, ?Bool.andb_assoc; reflexivity.
Qed.

Lemma downstream_app x y : downstream (x ++ y) = downstream x ++ downstream y.
Proof. apply flat_map_app. Qed.

Lemma marks_quiet n b l :
  no_stuck (map FMark l) = true /\ peak_ok n b (map FMark l) = true /\ downstream (map FMark l) = [].
Proof. induction l as [|x l IH]; cbn; auto. Qed.

(* a prefix accepted with the stream still live holds items only *)
Lemma down_ok_app d r : down_ok true d = true -> forall a, down_ok a (d ++ r) = down_ok a r.
Proof.
  induction d as [|e d IH]; intros H a; [reflexivity|]. destruct e; cbn in H; try discriminate. apply IH, H.
Qed.

Lemma down_ok_true_wf d r : down_ok true d = true -> wf (d ++ r) = wf r.
Proof.
  induction d as [|e d IH]; intros H; [reflexivity|]. destruct e; cbn in H; try discriminate. apply IH, H.
Qed.

Lemma down_ok_false_wf d : down_ok false d = true -> wf d = true.
Proof.
  induction d as [|e d IH]; intros H; [discriminate|]. destruct e; cbn in *; [apply IH, H| |]; destruct d; auto.
Qed.

Record Inv (n : option nat) (s : fstate) : Prop := {
  inv_lim : within n (f_subscribed s) = true;
  inv_full : f_queue s <> [] -> below_limit n (f_subscribed s) = false;
  inv_comp : f_outside_completed s = true -> 0 < f_subscribed s
}.

Definition Ready (n : option nat) (s : fstate) : Prop :=
  f_alive s = true /\ Inv n s /\ 0 < f_subscribed s.

Lemma ready_inv n s : Ready n s -> f_alive s = true /\ Inv n s.
Proof. intros (A & I & _). auto. Qed.

(* b is the balance of the trace so far *)
Definition Good (n : option nat) (b : nat) (s : fstate) : Prop :=
  f_alive s = true -> Inv n s /\ b = f_subscribed s.

(* what a stretch of output, begun in a live state at balance b and ending in s', guarantees *)
Record Post (n : option nat) (b : nat) (out : list fout) (s' : fstate) : Prop := {
  p_nostuck : no_stuck out = true;
  p_peak : peak_ok n b out = true;
  p_down : down_ok (f_alive s') (downstream out) = true;
  p_good : Good n (balance b out) s';
  p_done : In (FTerm Done) out ->
           f_alive s' = false /\ f_subscribed s' = 0 /\ f_queue s' = [] /\ f_outside_completed s' = true
}.

Lemma within_below n k : below_limit n k = true -> within n (S k) = true.
Proof. destruct n as [m|]; cbn; [|reflexivity]. intros H. apply Nat.ltb_lt in H. apply Nat.leb_le. lia. Qed.

Lemma within_pred n k : within n k = true -> within n (pred k) = true.
Proof. destruct n as [m|]; cbn; [|reflexivity]. intros H. apply Nat.leb_le in H. apply Nat.leb_le. lia. Qed.

Lemma full_pos n k : valid_limit n -> within n k = true -> below_limit n k = false -> 0 < k.
Proof.
  destruct n as [m|]; cbn; [|discriminate]. intros V W B.
  apply Nat.leb_le in W. apply Nat.ltb_ge in B. destruct m; [contradiction|lia].
Qed.

Lemma post_nil n b s : f_alive s = true -> Good n b s -> Post n b [] s.
Proof. intros Ha G. constructor; auto. intros []. Qed.

Lemma post_cons n b o out s' :
  match o with FTerm _ | FStuck => False | FSubscribed _ => within n (S b) = true | _ => True end ->
  Post n (balance b [o]) out s' -> Post n b (o :: out) s'.
Proof.
  intros Ho [P1 P2 P3 P4 P5].
  destruct o; try contradiction; constructor; auto; try (intros [H|H]; [discriminate|auto]).
  cbn. rewrite Ho. exact P2.
Qed.

Lemma post_items n b k vs out s' : Post n b out s' -> Post n b (map (FItem k) vs ++ out) s'.
Proof. intros P. induction vs as [|v vs IH]; [exact P|]. apply post_cons; [exact I|exact IH]. Qed.

Lemma post_term n b e s' :
  is_term e = true -> f_alive s' = false ->
  (e = Done -> f_subscribed s' = 0 /\ f_queue s' = [] /\ f_outside_completed s' = true) ->
  Post n b [FTerm e] s'.
Proof.
  intros He Hd Hdone. constructor; cbn; rewrite ?Hd; auto.
  - intros H. congruence.
  - intros [H|[]]. injection H as ->. auto.
Qed.

Lemma post_app n b o1 s1 o2 s2 :
  Post n b o1 s1 -> f_alive s1 = true -> Post n (balance b o1) o2 s2 -> Post n b (o1 ++ o2) s2.
Proof.
  intros [A1 A2 A3 A4 A5] Ha [B1 B2 B3 B4 B5]. rewrite Ha in A3. constructor.
  - rewrite no_stuck_app, A1. exact B1.
  - rewrite peak_app, A2. exact B2.
  - rewrite downstream_app, down_ok_app by exact A3. exact B3.
  - rewrite balance_app. exact B4.
  - intros H. apply in_app_or in H. destruct H as [H|H]; [|auto]. apply A5 in H. destruct H as [H _]. congruence.
Qed.

Lemma release_post n s k :
  f_alive s = true -> Inv n s -> f_queue s = [] ->
  Post n (f_subscribed s) (snd (release_slot s k)) (fst (release_slot s k)).
Proof.
  intros Ha [I1 I2 I3] Hq. unfold release_slot. cbn [f_subscribed upd_subscribed f_outside_completed].
  destruct (Nat.eqb (pred (f_subscribed s)) 0 && f_outside_completed s) eqn:T; cbn [fst snd];
    (apply post_cons; [exact I|]).
  - apply andb_prop in T. destruct T as [T1 T2]. apply Nat.eqb_eq in T1. apply post_term; auto.
  - apply post_nil; [exact Ha|]. intros _. split; [|reflexivity]. constructor; cbn.
    + apply within_pred, I1.
    + congruence.
    + intros Ho. rewrite Ho, Bool.andb_true_r in T. apply Nat.eqb_neq in T. lia.
Qed.

(* a subscription takes a slot that the counter already accounts for; a completion gives one back *)
Definition SubPost (n : option nat) (s : fstate) (k : nat) (i : iobs) (r : fstate * list fout) : Prop :=
  forall b, Inv n s -> S b = f_subscribed s -> Post n b (snd r) (fst r).

Definition DonePost (n : option nat) (s : fstate) (k : nat) (r : fstate * list fout) : Prop :=
  Inv n s -> Post n (f_subscribed s) (snd r) (fst r).

Lemma cascade_post n : valid_limit n -> forall fuel, Cascade (SubPost n) (DonePost n) fuel.
Proof.
  intros V. apply cascade_ind; unfold SubPost, DonePost; cbn [fst snd].
  - intros s k id Ha b Hi Hb. apply post_cons; [rewrite Hb; exact (inv_lim n s Hi)|]. apply post_nil; [exact Ha|].
    intros _. split; [|exact Hb]. destruct Hi. constructor; assumption.
  - intros s k sc c Ha Hc b Hi Hb. apply post_cons; [rewrite Hb; exact (inv_lim n s Hi)|]. cbn [balance]. apply post_items.
    destruct (term_of sc) as [| |e]; [subst c|rewrite Hb; apply Hc, Hi|subst c].
    + apply post_nil; [exact Ha|]. intros _. auto.
    + apply post_term; auto. discriminate.
  - intros s k Ha Hq Hi. apply release_post; assumption.
  - (* somebody waits, so every slot is taken, this one included: the counter is not 0 and
       stays as it is *)
    intros s k k' i' q r Ha Eq HS [I1 I2 I3].
    assert (Hfull : below_limit n (f_subscribed s) = false) by (apply I2; rewrite Eq; discriminate).
    pose proof (full_pos n _ V I1 Hfull) as Hpos.
    apply post_cons; [exact I|]. apply HS; [constructor; auto|cbn; lia].
Qed.

Lemma hot_event_post n (V : valid_limit n) e : forall ts s b,
  f_alive s = true -> Good n b s -> Post n b (snd (hot_event s ts e)) (fst (hot_event s ts e)).
Proof.
  induction ts as [|k r IH]; intros s b Ha G; [apply post_nil; assumption|]. cbn [hot_event].
  set (first := match e with Next v => _ | Err x => _ | Done => _ end).
  assert (P1 : Post n b (snd first) (fst first)).
  { destruct (G Ha) as [Hi Hb]. subst first. destruct e as [v|x|].
    - unfold inner_next. rewrite Ha. apply post_cons; [exact I|]. apply post_nil; assumption.
    - unfold inner_error. rewrite Ha. apply post_term; auto. discriminate.
    - rewrite Hb. apply (proj2 (cascade_post n V _)); auto. }
  destruct first as [s1 o1]. cbn [fst snd] in P1. destruct (f_alive s1) eqn:Ha1.
  - specialize (IH s1 (balance b o1) Ha1 (p_good _ _ _ _ P1)).
    destruct (hot_event s1 r e) as [s2 o2]. eapply post_app; eassumption.
  - rewrite hot_event_dead by exact Ha1. cbn [fst snd]. rewrite app_nil_r. exact P1.
Qed.

Lemma fstep_post n (V : valid_limit n) s b st :
  f_alive s = true -> Good n b s -> Post n b (snd (fstep n s st)) (fst (fstep n s st)).
Proof.
  intros Ha G. destruct (G Ha) as [[I1 I2 I3] Hb].
  destruct st as [[i|e|]|id e|]; cbn [fstep]; rewrite ?Ha.
  - cbn [upd_next f_subscribed f_queue]. destruct (below_limit n (f_subscribed s)) eqn:Eb.
    + apply (proj1 (cascade_post n V _)); [exact Ha|cbn; lia| |cbn; congruence].
      constructor; cbn; [apply within_below, Eb|intros Hq; discriminate (I2 Hq)|lia].
    + apply post_nil; [exact Ha|]. intros _. split; [|exact Hb]. constructor; cbn; auto.
  - apply post_term; auto. discriminate.
  - cbn [upd_outside f_subscribed f_queue].
    destruct (Nat.eqb_spec (f_subscribed s) 0) as [E0|E0]; cbn [andb]; [destruct (f_queue s) as [|x q] eqn:Eq|].
    + apply post_term; auto.
    + (* all slots free and somebody waiting: excluded *)
      assert (Hq : x :: q <> []) by discriminate. pose proof (full_pos n _ V I1 (I2 Hq)). lia.
    + apply post_nil; [exact Ha|]. intros _. split; [|exact Hb]. constructor; cbn; auto. intros _. lia.
  - (* a hot inner observable: the state invariant does not mention the subscription list *)
    destruct (memn id (f_hot_done s)); [apply post_nil; assumption|].
    apply (hot_event_post n V); destruct (is_term e); auto.
    intros _. split; [constructor; assumption|exact Hb].
  - apply post_nil; assumption.
Qed.

Definition RunOk (n : option nat) (b : nat) (s : fstate) (out : list fout) : Prop :=
  no_stuck out = true /\ peak_ok n b out = true /\
  (if f_alive s then wf (downstream out) = true else downstream out = []).

Theorem frun_props n (V : valid_limit n) :
  forall sts s live j b, Good n b s -> RunOk n b s (frun n s live j sts).
Proof.
  apply (frun_ind n (fun s _ _ _ out => forall b, Good n b s -> RunOk n b s out)); unfold RunOk.
  - intros s live j b _. destruct (f_alive s); auto.
  - intros s live j r b _. destruct (marks_quiet n b (seq j (S (length r)))) as (M1 & M2 & M3).
    rewrite M3. destruct (f_alive s); auto.
  - intros s j e r out IH b G. exact (IH b G).
  - (* the three predicates skip markers, so FMark j in front is invisible up to conversion *)
    intros s live j st r out _ IH b G. change (RunOk n b s (snd (fstep n s st) ++ out)). unfold RunOk.
    destruct (f_alive s) eqn:Ha.
    + destruct (fstep_post n V s b st Ha G) as [A1 A2 A3 A4 _]. destruct (IH _ A4) as (R1 & R2 & R3).
      rewrite no_stuck_app, peak_app, downstream_app, A1, A2. split; [exact R1|]. split; [exact R2|].
      destruct (f_alive (fst (fstep n s st))).
      * rewrite down_ok_true_wf by exact A3. exact R3.
      * rewrite R3, app_nil_r. apply down_ok_false_wf, A3.
    + destruct (fstep_dead n s st Ha) as [E1 E2]. rewrite E1. specialize (IH b). rewrite E2 in IH.
      apply IH. intros H. congruence.
Qed.

Lemma good0 n : Good n 0 fstate0.
Proof.
  intros _. split; [|reflexivity]. constructor; cbn; [destruct n as [[|m]|]; reflexivity|congruence|discriminate].
Qed.

(* f_alive fstate0 computes to true, so the third part of RunOk is the grammar *)
Lemma run_flatten_ok n (V : valid_limit n) sts :
  no_stuck (run_flatten n sts) = true /\ peak_ok n 0 (run_flatten n sts) = true /\
  wf (downstream (run_flatten n sts)) = true.
Proof. exact (frun_props n V sts fstate0 true 0 0 (good0 n)). Qed.

(* No nesting beyond the fuel: the model never gets stuck (in particular the re-entrant
   subscription started from an inner completion terminates). *)
Theorem flatten_no_stuck n sts : valid_limit n -> no_stuck (run_flatten n sts) = true.
Proof. intros V. exact (proj1 (run_flatten_ok n V sts)). Qed.

(* Never more than n inner observables subscribed at any instant. *)
Theorem flatten_limit n sts : valid_limit n -> peak_ok n 0 (run_flatten n sts) = true.
Proof. intros V. exact (proj1 (proj2 (run_flatten_ok n V sts))). Qed.

(* The subscriber sees items, at most one terminal, nothing after it. *)
Theorem flatten_wf n sts : valid_limit n -> wf (downstream (run_flatten n sts)) = true.
Proof. intros V. exact (proj2 (proj2 (run_flatten_ok n V sts))). Qed.

(* the states any sequence of stimuli leads to, each with the balance b of the trace so far
   (subscriptions minus completions of inner observables) *)
Inductive reach (n : option nat) : fstate -> nat -> Prop :=
| reach0 : reach n fstate0 0
| reach_step s b st : reach n s b -> reach n (fst (fstep n s st)) (balance b (snd (fstep n s st))).

Lemma reach_good n (V : valid_limit n) s b : reach n s b -> Good n b s.
Proof.
  induction 1 as [|s b st R G]; [apply good0|]. destruct (f_alive s) eqn:Ha.
  - exact (p_good _ _ _ _ (fstep_post n V s b st Ha G)).
  - intros Ha'. destruct (fstep_dead n s st Ha) as [_ E]. congruence.
Qed.

(* not before: completion is delivered only by a step after which the outer stream has
   completed, no inner observable is subscribed and none is waiting *)
Theorem flatten_done_sound n s b st :
  valid_limit n -> reach n s b -> In (FTerm Done) (snd (fstep n s st)) ->
  let s' := fst (fstep n s st) in
  f_subscribed s' = 0 /\ f_queue s' = [] /\ f_outside_completed s' = true.
Proof.
  intros V R Hin. destruct (f_alive s) eqn:Ha.
  - apply (p_done _ _ _ _ (fstep_post n V s b st Ha (reach_good n V s b R))) in Hin. exact (proj2 Hin).
  - rewrite (proj1 (fstep_dead n s st Ha)) in Hin. destruct Hin.
Qed.

(* not later: a reachable live state whose outer stream has completed still has a subscribed
   inner observable (otherwise completion would already have been delivered) *)
Theorem flatten_done_complete n s b :
  valid_limit n -> reach n s b -> f_alive s = true -> f_outside_completed s = true -> 0 < f_subscribed s.
Proof. intros V R Ha. destruct (reach_good n V s b R Ha) as [Hi _]. exact (inv_comp n s Hi). Qed.

(* the count kept by the operator is the number of subscribed, not yet completed inner observables *)
Theorem flatten_count_exact n s b :
  valid_limit n -> reach n s b -> f_alive s = true -> b = f_subscribed s /\ within n (f_subscribed s) = true.
Proof. intros V R Ha. destruct (reach_good n V s b R Ha) as [Hi Hb]. split; [exact Hb|exact (inv_lim n s Hi)]. Qed.
