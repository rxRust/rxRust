(* C16: the back channel reaches every producer, and producers that consult it stop. *)
From RxModel Require Import Fin.
From RxProofs Require Import Ops2Laws.
Local Open Scope nat_scope.

(* the batch contains an error or a completion *)
Definition has_term (l : list ev) : bool := existsb is_term l.

Lemma has_term_app a b : has_term (a ++ b) = has_term a || has_term b.
Proof. apply existsb_app. Qed.

(* the kinds of is_finished body whose answer is true as soon as the downstream's is *)
Definition forwards (k : fin_kind) : bool :=
  match k with KFwd | KSlotOrFwd | KCellSlotOrFwd | KBoxFwd => true | _ => false end.

Lemma path_or ks g d : forallb forwards ks = true -> interp_path ks g d = interp_path ks g false || d.
Proof.
  induction ks as [|k r IH]; intros H; [reflexivity|]. apply andb_prop in H. destruct H as [Hk Hr].
  cbn [interp_path fold_right]. fold (interp_path r g d) (interp_path r g false). rewrite (IH Hr).
  destruct k; try discriminate; cbn; rewrite ?Bool.orb_assoc; reflexivity.
Qed.

Lemma path_mono ks g d : forallb forwards ks = true -> interp_path ks g false = true -> interp_path ks g d = true.
Proof. intros Hf H. rewrite (path_or ks g d Hf), H. reflexivity. Qed.

(* the operators whose observer can be gone while its upstream is alive *)
Definition is_cutter (o : op1) : bool := match o with OTake _ | OTakeWhile _ _ | OContains _ => true | _ => false end.

Definition cut_node (nd : node) : bool := is_cutter (n_op nd) && gone1 (n_st nd).

Lemma fin1_or o st d : fin1 o st d = is_cutter o && gone1 st || d.
Proof. destruct o; reflexivity. Qed.

Lemma fin2_or o s sd d : fin2 o s sd d = negb (alive s) || d.
Proof. destruct o, sd; reflexivity. Qed.

Lemma chain_fin_or : forall ch p, chain_fin ch p = existsb cut_node ch || p.
Proof.
  induction ch as [|nd r IH]; intros p; [reflexivity|]. cbn [chain_fin existsb]. unfold node_fin.
  rewrite IH, fin1_or. apply Bool.orb_assoc.
Qed.

Theorem fin1_forward o st : fin1 o st true = true.
Proof. rewrite fin1_or. apply Bool.orb_true_r. Qed.

Theorem fin2_forward o s sd : fin2 o s sd true = true.
Proof. rewrite fin2_or. apply Bool.orb_true_r. Qed.

Theorem chain_fin_forward : forall ch, chain_fin ch true = true.
Proof. intros ch. rewrite chain_fin_or. apply Bool.orb_true_r. Qed.

Lemma chain_fin_mono ch p : chain_fin ch false = true -> chain_fin ch p = true.
Proof. rewrite !chain_fin_or, Bool.orb_false_r. intros ->. reflexivity. Qed.

(* by inspection of step1: on an item no other operator emits a terminal ... *)
Lemma item_no_term o st v : is_cutter o = false -> has_term (snd (step1 o st (Next v))) = false.
Proof.
  destruct o; try discriminate; intros _; cbn [step1]; unfold emit_buf;
    try match goal with |- context [match st with _ => _ end] => destruct st; try reflexivity end;
    repeat match goal with
           | |- context [if ?c then _ else _] => destruct c
           | |- context [match ?x with _ => _ end] => destruct x
           end; reflexivity.
Qed.

(* ... and take, take_while and contains do so only as they empty their slot *)
Lemma item_cut o st v :
  has_term (snd (step1 o st (Next v))) = true -> is_cutter o && gone1 (fst (step1 o st (Next v))) = true.
Proof.
  destruct (is_cutter o) eqn:Ec; [|rewrite item_no_term by exact Ec; discriminate].
  destruct o; try discriminate; destruct st; try discriminate; cbn [step1 andb].
  - destruct (hits <? n), alive, (S hits =? n); discriminate || reflexivity.
  - destruct alive, (p v); discriminate || reflexivity.
  - destruct alive, (val_eqb target v); discriminate || reflexivity.
Qed.

Lemma gone_step o st e : is_cutter o = true -> gone1 st = true -> gone1 (fst (step1 o st e)) = true.
Proof.
  destruct o; try discriminate; destruct st as [|[|] hits| |[|]| | | | | |]; try discriminate; intros _ _; try reflexivity.
  destruct e; cbn [step1]; [destruct (hits <? n)|..]; reflexivity.
Qed.

Definition no_term (l : list ev) : bool := negb (has_term l).

Definition fed (nd : node) (e : ev) : node :=
  {| n_op := n_op nd; n_st := fst (step1 (n_op nd) (n_st nd) e); n_live := negb (is_term e) |}.

Lemma feed_cons nd e r :
  feed nd (e :: r) =
  if n_live nd then (fst (feed (fed nd e) r), snd (step1 (n_op nd) (n_st nd) e) ++ snd (feed (fed nd e) r)) else (nd, []).
Proof.
  cbn [feed]. destruct (n_live nd); [|reflexivity]. unfold fed.
  destruct (step1 (n_op nd) (n_st nd) e) as [st' out]. cbn [fst snd]. destruct (feed _ r). reflexivity.
Qed.

Lemma feed_op : forall evs nd, n_op (fst (feed nd evs)) = n_op nd.
Proof.
  induction evs as [|e r IH]; intros nd; [reflexivity|]. rewrite feed_cons.
  destruct (n_live nd); [exact (IH (fed nd e))|reflexivity].
Qed.

Lemma feed_gone : forall evs nd, cut_node nd = true -> cut_node (fst (feed nd evs)) = true.
Proof.
  induction evs as [|e r IH]; intros nd H; [exact H|]. rewrite feed_cons.
  destruct (n_live nd); [apply IH|exact H].
  unfold cut_node in *. cbn [fed n_op n_st]. apply andb_prop in H. destruct H as [Hc Hg].
  rewrite Hc, (gone_step _ _ e Hc Hg). reflexivity.
Qed.

Lemma feed_cut : forall evs nd,
  has_term evs = false -> has_term (snd (feed nd evs)) = true -> cut_node (fst (feed nd evs)) = true.
Proof.
  induction evs as [|e r IH]; intros nd Hn Ht; [discriminate|]. rewrite feed_cons in *.
  destruct e as [v|x|]; try discriminate. destruct (n_live nd); [|discriminate]. cbn [fst snd] in *.
  rewrite has_term_app in Ht. destruct (has_term (snd (step1 (n_op nd) (n_st nd) (Next v)))) eqn:Eo.
  - apply feed_gone. exact (item_cut _ _ _ Eo).
  - apply IH; [exact Hn|exact Ht].
Qed.

(* the statement for chains: whatever operators sit between, an early end anywhere in the chain
   is visible at its source-side end, and stays visible *)
Theorem chain_cut_reaches_source ch evs :
  has_term evs = false -> has_term (snd (push ch evs)) = true -> chain_fin (fst (push ch evs)) false = true.
Proof.
  rewrite chain_fin_or, Bool.orb_false_r. revert evs.
  induction ch as [|nd rest IH]; intros evs Hn Ht; [cbn [push snd] in Ht; congruence|]. cbn [push] in *.
  pose proof (feed_cut evs nd Hn) as C. destruct (feed nd evs) as [nd' out]. specialize (IH out).
  destruct (push rest out) as [rest' out']. cbn [fst snd existsb] in *.
  destruct (has_term out) eqn:Eo.
  - rewrite (C eq_refl). reflexivity.
  - rewrite (IH eq_refl Ht). apply Bool.orb_true_r.
Qed.

Theorem chain_fin_stable ch evs : chain_fin ch false = true -> chain_fin (fst (push ch evs)) false = true.
Proof.
  rewrite !chain_fin_or, !Bool.orb_false_r. revert evs.
  induction ch as [|nd rest IH]; intros evs H; [discriminate|]. cbn [push].
  pose proof (feed_gone evs nd) as G. destruct (feed nd evs) as [nd' out]. specialize (IH out).
  destruct (push rest out) as [rest' out']. cbn [fst existsb] in *.
  apply Bool.orb_true_iff in H. destruct H as [H|H]; [rewrite (G H); reflexivity|rewrite (IH H); apply Bool.orb_true_r].
Qed.

Lemma wf_items_app a b : has_term a = false -> wf (a ++ b) = wf b.
Proof. induction a as [|e r IH]; [reflexivity|]. destruct e; try discriminate. exact IH. Qed.

(* what one arrival at a two-input operator produces: items only, or a well-formed batch whose
   terminal has emptied the slot *)
Definition closing (r : st2 * list ev) : Prop :=
  has_term (snd r) = false \/ (wf (snd r) = true /\ alive (fst r) = false).

Lemma closing_quiet s : closing (s, []).
Proof. left. reflexivity. Qed.

Lemma closing_next s v : closing (slot_next s v).
Proof. left. unfold slot_next. destruct (alive s); reflexivity. Qed.

Lemma closing_term s e : is_term e = true -> closing (slot_term s e).
Proof.
  intros He. unfold slot_term. destruct (alive s); [right|left; reflexivity].
  destruct e; [discriminate| |]; split; reflexivity.
Qed.

Lemma closing_second s : closing (complete_second s).
Proof. unfold complete_second. destruct (c1 s); [apply closing_term; reflexivity|apply closing_quiet]. Qed.

Lemma emit_data_items s : has_term (snd (emit_data s)) = false.
Proof. unfold emit_data. destruct (qa s); [reflexivity|]. destruct (alive s); reflexivity. Qed.

Lemma closing_emit s : closing (emit_data s).
Proof. left. apply emit_data_items. Qed.

#[local] Hint Resolve closing_quiet closing_next closing_term closing_second closing_emit : closing.

(* every branch of step2 ends in one of the five forms above, except buffer's complete *)
Theorem step2_closing o s sd e : closing (step2 o s sd e).
Proof.
  destruct o; cbn [step2].
  - destruct e; auto with closing.
  - destruct e; auto with closing. destruct sd; [destruct (qb s)|destruct (qa s)]; auto with closing.
  - destruct e; auto with closing. destruct (la _); auto with closing. destruct (lb _); auto with closing.
  - destruct sd, e; auto with closing. destruct (lb s); auto with closing.
  - destruct sd, e; auto with closing.
  - destruct sd, e; auto with closing. destruct (skipping s); auto with closing.
  - destruct sd, e; auto with closing; destruct (la s); auto with closing.
  - destruct (alive s); auto with closing.
    destruct sd, e; auto with closing; right; cbn [fst snd]; rewrite wf_items_app by apply emit_data_items; auto.
Qed.

Lemma step2_term_closes o s sd e : has_term (snd (step2 o s sd e)) = true -> alive (fst (step2 o s sd e)) = false.
Proof. intros Ht. destruct (step2_closing o s sd e) as [N|[_ A]]; [congruence|exact A]. Qed.

Lemma sink_fin_spec k :
  sink_fin k = match sk_two k with Some (o, s, _) => negb (alive s) | None => false end || chain_fin (sk_ch k) false.
Proof. unfold sink_fin. destruct (sk_two k) as [[[o s] sd]|]; [apply fin2_or|reflexivity]. Qed.

Lemma sink_put_spec k sd e :
  let mid := match sk_two k with Some (o, s, _) => snd (step2 o s sd e) | None => [e] end in
  snd (sink_put k sd e) = snd (push (sk_ch k) mid) /\
  sink_fin (fst (sink_put k sd e)) =
  match sk_two k with Some (o, s, _) => negb (alive (fst (step2 o s sd e))) | None => false end
  || chain_fin (fst (push (sk_ch k) mid)) false.
Proof.
  unfold sink_put. destruct (sk_two k) as [[[o s] me]|]; [destruct (step2 o s sd e) as [s' mid]|]; cbn [fst snd];
    destruct (push (sk_ch k) _) as [ch' out]; rewrite sink_fin_spec; split; reflexivity.
Qed.

(* an early end of the stream, wherever it happens behind the producer's observer, is visible to
   the producer at its next look *)
Theorem sink_cut k sd e :
  (sk_two k = None -> is_term e = false) ->
  has_term (snd (sink_put k sd e)) = true -> sink_fin (fst (sink_put k sd e)) = true.
Proof.
  intros He. destruct (sink_put_spec k sd e) as [O F]. rewrite O, F. intros Ht. destruct (sk_two k) as [[[o s] me]|].
  - destruct (has_term (snd (step2 o s sd e))) eqn:Em.
    + rewrite (step2_term_closes _ _ _ _ Em). reflexivity.
    + rewrite (chain_cut_reaches_source _ _ Em Ht). apply Bool.orb_true_r.
  - apply chain_cut_reaches_source; [|exact Ht]. cbn. rewrite (He eq_refl). reflexivity.
Qed.

(* ... and stays visible whatever arrives afterwards, from either input *)
Theorem sink_fin_stable k sd e : sink_fin k = true -> sink_fin (fst (sink_put k sd e)) = true.
Proof.
  rewrite sink_fin_spec, (proj2 (sink_put_spec k sd e)). intros H. apply Bool.orb_true_iff in H.
  destruct H as [H|H]; [|rewrite (chain_fin_stable _ _ H); apply Bool.orb_true_r].
  destruct (sk_two k) as [[[o s] me]|]; [|discriminate]. apply Bool.negb_true_iff in H.
  rewrite (proj1 (dead_step o s sd e H)). reflexivity.
Qed.

Lemma prod_put_spec k e :
  prod_put k e = (k, []) \/
  (sink_fin (fst (prod_put k e)) = sink_fin (fst (sink_put k (sink_side k) e)) /\
   snd (prod_put k e) = snd (sink_put k (sink_side k) e)).
Proof.
  unfold prod_put. destruct (sk_live k); [right|left; reflexivity].
  destruct (sink_put k (sink_side k) e) as [k' out]. split; reflexivity.
Qed.

Lemma prod_put_cut k v : has_term (snd (prod_put k (Next v))) = true -> sink_fin (fst (prod_put k (Next v))) = true.
Proof.
  destruct (prod_put_spec k (Next v)) as [E|[F O]]; [rewrite E; discriminate|].
  rewrite F, O. apply sink_cut. reflexivity.
Qed.

Lemma prod_put_stable k e : sink_fin k = true -> sink_fin (fst (prod_put k e)) = true.
Proof.
  intros H. destruct (prod_put_spec k e) as [E|[F _]]; [rewrite E; exact H|rewrite F; apply sink_fin_stable, H].
Qed.

Theorem iter_no_pull_when_finished k items : sink_fin k = true -> iter_loop k items = (k, 0, []).
Proof. intros H. destruct items; cbn; [reflexivity|rewrite H; reflexivity]. Qed.

(* the item that ended the stream is the last one pulled, however long the iterator is *)
Theorem iter_stops_at_cut k v rest :
  sink_fin k = false -> has_term (snd (prod_put k (Next v))) = true ->
  iter_loop k (v :: rest) = (fst (prod_put k (Next v)), 1, snd (prod_put k (Next v))).
Proof.
  intros Hf Ht. cbn [iter_loop]. rewrite Hf. pose proof (prod_put_cut k v Ht) as C.
  destruct (prod_put k (Next v)) as [k1 out]. cbn [fst snd] in *.
  rewrite (iter_no_pull_when_finished k1 rest C). rewrite app_nil_r. reflexivity.
Qed.

Definition pulls_of (r : sink * nat * list ev) : nat := snd (fst r).

Theorem iter_pulls_bounded : forall items k,
  pulls_of (iter_loop k items) <= length items /\
  (pulls_of (iter_loop k items) < length items -> sink_fin (fst (fst (iter_loop k items))) = true).
Proof.
  induction items as [|v r IH]; intros k; [cbn; split; [lia|lia]|].
  cbn [iter_loop]. destruct (sink_fin k) eqn:Ef; [cbn; split; [lia|auto]|].
  destruct (prod_put k (Next v)) as [k1 out]. specialize (IH k1).
  destruct (iter_loop k1 r) as [[k2 p] out2]. unfold pulls_of in *. cbn [fst snd length] in *.
  destruct IH as [I1 I2]. split; [lia|]. intros H. apply I2. lia.
Qed.

Theorem interval_retires_when_finished s :
  iv_retired s = false -> sink_fin (iv_sink s) = true ->
  iv_retired (fst (iv_tick s)) = true /\ snd (iv_tick s) = [].
Proof. intros Hr Hf. unfold iv_tick. rewrite Hr, Hf. split; reflexivity. Qed.

Lemma retired_stays s : iv_retired s = true -> iv_tick s = (s, []).
Proof. intros H. unfold iv_tick. rewrite H. reflexivity. Qed.

(* how often the interval's period elapses in sts *)
Definition ticks (sts : list rstim) : nat := length (filter (fun x => match x with RTick => true | _ => false end) sts).

(* a retired task stays retired; with the sink finished, the next tick retires it, whatever the other input does before *)
Lemma iv_run_finished : forall sts s sd ol,
  iv_retired s = true \/ sink_fin (iv_sink s) = true /\ 0 < ticks sts -> iv_retired (fst (iv_run s sd ol sts)) = true.
Proof.
  induction sts as [|[e|] r IH]; intros s sd ol H; cbn [iv_run].
  - destruct H as [H|[_ H]]; [exact H|inversion H].
  - destruct ol; [|exact (IH s sd false H)].
    pose proof (sink_fin_stable (iv_sink s) sd e) as St. destruct (sink_put (iv_sink s) sd e) as [k1 o1]. cbn [fst] in St.
    assert (H1 : iv_retired s = true \/ sink_fin k1 = true /\ 0 < ticks r).
    { destruct H as [H|[Hf H]]; [left; exact H|right; split; [exact (St Hf)|exact H]]. }
    specialize (IH {| iv_sink := k1; iv_seq := iv_seq s; iv_retired := iv_retired s |} sd (negb (is_term e)) H1).
    destruct (iv_run _ sd _ r) as [s2 o2]. exact IH.
  - assert (T : iv_retired (fst (iv_tick s)) = true).
    { destruct (iv_retired s) eqn:Er; [rewrite (retired_stays s Er); exact Er|].
      destruct H as [H|[Hf _]]; [discriminate H|apply (interval_retires_when_finished s Er Hf)]. }
    destruct (iv_tick s) as [s1 o1]. specialize (IH s1 sd ol (or_introl T)). destruct (iv_run s1 sd ol r) as [s2 o2]. exact IH.
Qed.

(* within one period: after the tick whose item ended the stream, the very next tick retires the
   task — whatever the other input does in between — and it stays retired *)
Theorem interval_retires_within_one_period s sd ol sts :
  iv_retired s = false -> has_term (snd (iv_tick s)) = true -> 0 < ticks sts ->
  iv_retired (fst (iv_run (fst (iv_tick s)) sd ol sts)) = true.
Proof.
  intros Hr Ht Hn. unfold iv_tick in *. rewrite Hr in *. destruct (sink_fin (iv_sink s)) eqn:Ef; [discriminate|].
  pose proof (prod_put_cut (iv_sink s) (VZ (Z.of_nat (iv_seq s)))) as C.
  destruct (prod_put (iv_sink s) (Next (VZ (Z.of_nat (iv_seq s))))) as [k1 out]. cbn [fst snd] in *.
  apply (iv_run_finished sts {| iv_sink := k1; iv_seq := S (iv_seq s); iv_retired := false |} sd ol). right. split; [exact (C Ht)|exact Hn].
Qed.

Theorem stream_stops_when_finished k ready ended :
  sink_fin k = true ->
  let '(_, pulls, _, finished) := stream_poll k ready ended in pulls = 0 /\ finished = true.
Proof.
  intros H. unfold stream_poll. rewrite (iter_no_pull_when_finished k ready H). rewrite H. cbn [orb].
  destruct (prod_put k Done) as [k2 out2]. split; reflexivity.
Qed.

Theorem stream_poll_bounded k ready ended :
  let '(k1, pulls, _, finished) := stream_poll k ready ended in
  pulls <= length ready /\ (pulls < length ready -> finished = true).
Proof.
  unfold stream_poll. pose proof (iter_pulls_bounded ready k) as B. unfold pulls_of in B.
  destruct (iter_loop k ready) as [[k1 pulls] out]. cbn [fst snd] in B. destruct B as [B1 B2].
  destruct (sink_fin k1) eqn:Ef; cbn [orb].
  - destruct (prod_put k1 Done) as [k2 out2]. split; [exact B1|reflexivity].
  - destruct (Nat.eqb_spec pulls (length ready)) as [E|E]; cbn [andb].
    + destruct ended; [destruct (prod_put k1 Done) as [k2 out2]|]; (split; [exact B1|lia]).
    + split; [exact B1|]. intros H. specialize (B2 H). congruence.
Qed.
