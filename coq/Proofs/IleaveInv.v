(* Ileave.v: the reachability invariant of configurations (under the hypothesis that every probe
   name is subscribed at most once), its preservation by every move of every thread, and its
   establishment by the setup script. *)
From RxProofs Require Export IleaveBase.
Local Open Scope nat_scope.

(* the probes the thread is still to subscribe *)
Definition subs (th : ithread) : list nat := subscribed_in (t_ops th).

Record Core (s : ish) (ths : list ithread) : Prop := {
  c_cham : chamP s;
  (* a mutex is held by one thread at most *)
  c_mutex : forall i j thi thj l,
      nth_error ths i = Some thi -> nth_error ths j = Some thj ->
      iholds (t_pc thi) l = true -> iholds (t_pc thj) l = true -> i = j;
  (* a thread inside an operation has that operation at the head of its script *)
  c_pcok : forall i th, nth_error ths i = Some th -> pc_ok th;
  c_local : forall i th, nth_error ths i = Some th -> local s th;
  (* a probe still to be subscribed has no cell yet, ... *)
  c_fresh : forall i th k, nth_error ths i = Some th -> In k (subs th) -> cell_known s k = false;
  (* ... is to be subscribed by one thread only, ... *)
  c_disj : forall i j thi thj k,
      nth_error ths i = Some thi -> nth_error ths j = Some thj ->
      In k (subs thi) -> In k (subs thj) -> i = j;
  (* ... and by that thread only once *)
  c_nodup : forall i th, nth_error ths i = Some th -> NoDup (subs th)
}.

Lemma subs_step_in s t th s1 th1 o k :
  imove s t th = (s1, th1, o) -> pc_ok th -> chamP s -> In k (subs th1) -> In k (subs th).
Proof. intros Hm Hp Hc Hk. unfold subs. rewrite (F_subs _ _ _ _ _ _ Hm Hp Hc). apply in_or_app. auto. Qed.

Lemma unknown_stays s t th s1 th1 o k :
  imove s t th = (s1, th1, o) -> cell_known s k = false -> sub_now th <> Some k -> cell_known s1 k = false.
Proof.
  intros Hm Hk Hs. rewrite (F_known _ _ _ _ _ _ k Hm), Hk. destruct (sub_now th) as [k'|]; [|reflexivity].
  apply Nat.eqb_neq. congruence.
Qed.

(* a dead cell stays dead: only a subscription makes a cell alive, and the mover subscribes fresh names only *)
Lemma dead_stays s t th s1 th1 o k :
  imove s t th = (s1, th1, o) -> pc_ok th -> (forall k', In k' (subs th) -> cell_known s k' = false) ->
  cell_known s k = true -> cell_alive s k = false ->
  cell_known s1 k = true /\ cell_alive s1 k = false.
Proof.
  intros Hm Hp Hf Hk Hd. split.
  - rewrite (F_known _ _ _ _ _ _ k Hm), Hk. reflexivity.
  - destruct (cell_alive s1 k) eqn:E; auto.
    destruct (proj1 (F_alive _ _ _ _ _ _ k Hm) E) as [H|H]; [congruence|].
    apply sub_now_in in H; auto. rewrite (Hf _ H) in Hk. discriminate.
Qed.

(* The mover is the thread at index t; t' is only the number its move writes into the trace.  The two differ
   when the setup script is run as thread 0 of the configuration (after_setup): run_alone writes 9. *)
Lemma Core_step s ths t t' th s1 th1 o :
  Core s ths -> ienabled s ths t = true -> nth_error ths t = Some th -> imove s t' th = (s1, th1, o) ->
  Core s1 (set_th ths t th1).
Proof.
  intros HC He Ht Hm.
  assert (Hfree : forall l j thj, ineed s th = Some (Some l) -> nth_error ths j = Some thj ->
                                  iholds (t_pc thj) l = false) by (intros; eapply enabled_free; eauto).
  pose proof (c_local _ _ HC _ _ Ht) as Hlt. pose proof (c_pcok _ _ HC _ _ Ht) as Hpt.
  pose proof (c_cham _ _ HC) as Hch.
  constructor.
  - eapply F_cham; eauto. exact (local_unsP _ _ Hlt).
  - (* a lock the mover holds now it held before, or it was free *)
    assert (Hnew : forall j thj l, j <> t -> nth_error ths j = Some thj -> iholds (t_pc th1) l = true ->
                                   iholds (t_pc thj) l = true -> False).
    { intros j thj l Hne Hj H1 Hhj. destruct (F_holds _ _ _ _ _ _ _ Hm H1) as [H|H].
      - apply Hne. eapply (c_mutex _ _ HC); eauto.
      - rewrite (Hfree _ _ _ H Hj) in Hhj. discriminate. }
    intros i j thi thj l Hi Hj Hhi Hhj.
    destruct (nth_set_th_inv _ _ _ _ _ _ Ht Hi) as [[-> ->]|[Hni Hi']];
      destruct (nth_set_th_inv _ _ _ _ _ _ Ht Hj) as [[-> ->]|[Hnj Hj']]; auto.
    + exfalso; eauto.
    + exfalso; eauto.
    + eapply (c_mutex _ _ HC); eauto.
  - apply (set_th_all (fun _ => pc_ok) _ _ _ _ Ht); [eapply F_pcok; eauto|]. intros i x _. apply HC.
  - apply (set_th_all (fun _ => local s1) _ _ _ _ Ht); [eapply F_local_self; eauto|].
    intros i x Hni Hi. pose proof (c_local _ _ HC _ _ Hi) as Hl. unfold local in *.
    destruct (t_pc x) as [ | | | | v k rest | | | | e k rest | | | ] eqn:Epc; auto.
    + (* the cell stays alive: to kill it the mover would have to lock it *)
      destruct (cell_alive s1 k) eqn:E; auto.
      pose proof (Hfree _ _ _ (proj2 (F_alive _ _ _ _ _ _ k Hm) Hl E) Hi) as Hh. rewrite Epc in Hh. cbn in Hh.
      rewrite Nat.eqb_refl in Hh. discriminate.
    + destruct Hl. apply (dead_stays _ _ _ _ _ _ _ Hm Hpt); auto. intros k'. apply (c_fresh _ _ HC _ _ _ Ht).
    + eapply F_obs_none; eauto.
  - intros i x k Hi Hk. revert i x Hi Hk.
    apply (set_th_all (fun _ x => In k (subs x) -> cell_known s1 k = false) _ _ _ _ Ht).
    + intros Hk. apply (unknown_stays _ _ _ _ _ _ _ Hm).
      * apply (c_fresh _ _ HC _ _ _ Ht). eapply subs_step_in; eauto.
      * intros Es. pose proof (c_nodup _ _ HC _ _ Ht) as Hn. unfold subs in *.
        rewrite (F_subs _ _ _ _ _ _ Hm Hpt Hch), Es in Hn. inversion Hn; subst. contradiction.
    + intros i x Hni Hi Hk. apply (unknown_stays _ _ _ _ _ _ _ Hm); [apply (c_fresh _ _ HC _ _ _ Hi Hk)|].
      intros Es. apply sub_now_in in Es; auto. apply Hni. eapply (c_disj _ _ HC); eauto.
  - intros i j thi thj k Hi Hj Hki Hkj.
    destruct (nth_set_th_inv _ _ _ _ _ _ Ht Hi) as [[-> ->]|[Hni Hi']];
      destruct (nth_set_th_inv _ _ _ _ _ _ Ht Hj) as [[-> ->]|[Hnj Hj']]; auto;
      eapply (c_disj _ _ HC); eauto; eapply subs_step_in; eauto.
  - apply (set_th_all (fun _ x => NoDup (subs x)) _ _ _ _ Ht).
    + pose proof (c_nodup _ _ HC _ _ Ht) as Hn. unfold subs in *. rewrite (F_subs _ _ _ _ _ _ Hm Hpt Hch) in Hn.
      apply NoDup_app_iff in Hn. tauto.
    + intros i x _. apply HC.
Qed.

(* s_busy lists, each once, probes that some thread is inside a callback of *)
Definition Busy (s : ish) (ths : list ithread) : Prop :=
  NoDup (s_busy s) /\
  forall k, In k (s_busy s) -> exists i th, nth_error ths i = Some th /\ in_cb (t_pc th) = Some k.

Lemma in_cb_cases pc k :
  in_cb pc = Some k ->
  (iholds pc (LCell k) = true) \/ (exists x, pc = PInCbB k x).
Proof.
  destruct pc; cbn; try discriminate; intros H; inversion H; subst; rewrite ?Nat.eqb_refl; eauto.
Qed.

Lemma in_cb_B th k x : pc_ok th -> t_pc th = PInCbB k x -> In k (subs th).
Proof.
  unfold pc_ok, subs. intros Hp Hpc. rewrite Hpc in Hp. cbn in Hp. destruct Hp as (r & ->). cbn. auto.
Qed.

Lemma in_cb_known s th k : local s th -> iholds (t_pc th) (LCell k) = true -> cell_known s k = true.
Proof.
  unfold local. destruct (t_pc th); cbn; try discriminate; intros Hl Hk; apply Nat.eqb_eq in Hk; subst.
  - apply alive_known; auto.
  - tauto.
Qed.

(* a thread inside the callback of a probe that has a cell holds the cell's lock: the cell of a probe
   inside a behavior subscription's first call does not exist yet *)
Lemma cb_holds_cell s ths i x k :
  Core s ths -> nth_error ths i = Some x -> in_cb (t_pc x) = Some k -> cell_known s k = true ->
  iholds (t_pc x) (LCell k) = true.
Proof.
  intros HC Hi Hx Hk. destruct (in_cb_cases _ _ Hx) as [Hh|(y & Hy)]; [exact Hh|].
  rewrite (c_fresh _ _ HC _ _ _ Hi (in_cb_B _ _ _ (c_pcok _ _ HC _ _ Hi) Hy)) in Hk. discriminate.
Qed.

(* the probe whose callback the mover enters is not busy: no TOverlap is put out *)
Lemma no_ovl s ths t t' th s1 th1 o k :
  Core s ths -> Busy s ths -> ienabled s ths t = true -> nth_error ths t = Some th ->
  imove s t' th = (s1, th1, o) -> in_cb (t_pc th1) = Some k -> imem k (s_busy s) = false.
Proof.
  intros HC [_ HB] He Ht Hm Hin. apply imem_false. intros Hk.
  destruct (HB _ Hk) as (i & thi & Hi & Hci).
  destruct (F_incb _ _ _ _ _ _ _ Hm Hin) as (_ & [(Ha & _ & Hn)|(Hpc & r & Hops)]).
  - (* a broadcast: the mover is about to lock the cell, which the thread inside the callback holds *)
    pose proof (cb_holds_cell _ _ _ _ _ HC Hi Hci (alive_known _ _ Ha)) as Hh.
    rewrite (enabled_free _ _ _ _ _ _ _ He Ht Hn Hi) in Hh. discriminate.
  - (* a behavior subscription: the name is fresh, so the other thread is in the same position, under LVal *)
    assert (cell_known s k = false) as Hf by (apply (c_fresh _ _ HC _ _ _ Ht); unfold subs; rewrite Hops; cbn; auto).
    destruct (in_cb_cases _ _ Hci) as [Hh|(x & Hx)].
    + rewrite (in_cb_known _ _ _ (c_local _ _ HC _ _ Hi) Hh) in Hf. discriminate.
    + assert (ineed s th = Some (Some LVal)) as Hn by (unfold ineed; rewrite Hpc, Hops; reflexivity).
      pose proof (enabled_free _ _ _ _ _ _ _ He Ht Hn Hi) as Hh. rewrite Hx in Hh. discriminate.
Qed.

Lemma Busy_step s ths t t' th s1 th1 o :
  Core s ths -> Busy s ths -> ienabled s ths t = true -> nth_error ths t = Some th ->
  imove s t' th = (s1, th1, o) -> Busy s1 (set_th ths t th1).
Proof.
  intros HC HB He Ht Hm. pose proof (fun k => no_ovl _ _ _ _ _ _ _ _ k HC HB He Ht Hm) as Hno.
  destruct HB as [Hnd HB]. unfold Busy. rewrite (F_busy _ _ _ _ _ _ Hm).
  assert (Hother : forall k', (forall k0, in_cb (t_pc th) = Some k0 -> k' <> k0) -> In k' (s_busy s) ->
                   exists i x, nth_error (set_th ths t th1) i = Some x /\ in_cb (t_pc x) = Some k').
  { intros k' Hne Hk'. destruct (HB _ Hk') as (i & x & Hi & Hx). exists i, x. split; auto.
    rewrite nth_set_th_other; auto. intros <-. rewrite Ht in Hi. inversion Hi; subst.
    eapply Hne; eauto. }
  destruct (in_cb (t_pc th)) as [k|] eqn:Ec.
  - split; [apply NoDup_remove1; auto|]. intros k' Hk'.
    apply In_remove1_nodup in Hk'; auto. destruct Hk' as [Hk' Hne]. apply Hother; auto.
    intros k0 H0. inversion H0; subst. auto.
  - destruct (in_cb (t_pc th1)) as [k|] eqn:Ec1.
    + split.
      * constructor; auto. apply imem_false. apply Hno. reflexivity.
      * intros k' [<-|Hk'].
        -- exists t, th1. split; auto. eapply nth_set_th_same; eauto.
        -- apply Hother; auto. intros k0 H0; discriminate.
    + split; auto. intros k' Hk'. apply Hother; auto. intros k0 H0; discriminate.
Qed.

Fixpoint nodupb (l : list nat) : bool :=
  match l with [] => true | x :: r => negb (imem x r) && nodupb r end.

Lemma nodupb_NoDup l : nodupb l = true <-> NoDup l.
Proof.
  induction l as [|x l IH]; cbn.
  - split; [constructor|reflexivity].
  - rewrite andb_true_iff, negb_true_iff, imem_false, IH. split.
    + intros [H1 H2]. constructor; auto.
    + intros H. inversion H; auto.
Qed.

(* every probe name is subscribed at most once, in the setup script and the threads' scripts together *)
Definition names_ok (setup : list iop) (scripts : list (list iop)) : bool :=
  nodupb (subscribed_in (setup ++ concat scripts)).

Lemma sub_app a b : subscribed_in (a ++ b) = subscribed_in a ++ subscribed_in b.
Proof. unfold subscribed_in. apply flat_map_app. Qed.

Lemma in_sub_concat L j lj k :
  nth_error L j = Some lj -> In k (subscribed_in lj) -> In k (subscribed_in (concat L)).
Proof.
  revert j. induction L as [|l L IH]; intros [|j]; cbn; try discriminate; intros H Hk; rewrite sub_app;
    apply in_or_app.
  - inversion H; subst; auto.
  - right. eapply IH; eauto.
Qed.

Lemma names_split L :
  NoDup (subscribed_in (concat L)) ->
  (forall i l, nth_error L i = Some l -> NoDup (subscribed_in l)) /\
  (forall i j li lj k, nth_error L i = Some li -> nth_error L j = Some lj ->
                       In k (subscribed_in li) -> In k (subscribed_in lj) -> i = j).
Proof.
  induction L as [|l L IH]; cbn.
  - intros _. split; [intros [|i] l'; discriminate|intros [|i] j li lj k; discriminate].
  - rewrite sub_app. intros H. apply NoDup_app_iff in H. destruct H as (H1 & H2 & H3).
    destruct (IH H2) as [IH1 IH2]. split.
    + intros [|i] l' Hl; cbn in Hl; [inversion Hl; subst; auto|eauto].
    + intros [|i] [|j] li lj k Hi Hj Hki Hkj; cbn in Hi, Hj; auto.
      * inversion Hi; subst. exfalso. eapply H3; eauto. eapply in_sub_concat; eauto.
      * inversion Hj; subst. exfalso. eapply H3; eauto. eapply in_sub_concat; eauto.
      * f_equal. eapply IH2; eauto.
Qed.

Lemma Core_init v0 L : NoDup (subscribed_in (concat L)) -> Core (ish0 v0) (map start_thread L).
Proof.
  intros H. destruct (names_split L H) as [H1 H2]. constructor.
  - intros Hc; discriminate.
  - intros i j thi thj l Hi _ Hh _. apply nth_map_start in Hi. destruct Hi as (sc & _ & ->).
    cbn in Hh. discriminate.
  - intros i th Hi. apply nth_map_start in Hi. destruct Hi as (sc & _ & ->). exact I.
  - intros i th Hi. apply nth_map_start in Hi. destruct Hi as (sc & _ & ->). exact I.
  - intros i th k _ _. reflexivity.
  - intros i j thi thj k Hi Hj. apply nth_map_start in Hi. destruct Hi as (sci & Hi & ->).
    apply nth_map_start in Hj. destruct Hj as (scj & Hj & ->). unfold subs. cbn. eauto.
  - intros i th Hi. apply nth_map_start in Hi. destruct Hi as (sc & Hi & ->). unfold subs. cbn. eauto.
Qed.

Lemma Core_tail s th ths : Core s (th :: ths) -> Core s ths.
Proof.
  intros [Hcham Hmut Hpc Hloc Hfresh Hdisj Hnd]. constructor; auto.
  - intros i j thi thj l Hi Hj Hhi Hhj. assert (S i = S j) by (eapply Hmut; eauto). lia.
  - intros i x Hi. apply (Hpc (S i)); auto.
  - intros i x Hi. apply (Hloc (S i)); auto.
  - intros i x k Hi. apply (Hfresh (S i)); auto.
  - intros i j thi thj k Hi Hj Hki Hkj. assert (S i = S j) by (eapply Hdisj; eauto). lia.
  - intros i x Hi. apply (Hnd (S i)); auto.
Qed.

Lemma Busy_tail s th ths : Busy s (th :: ths) -> fin_th th = true -> Busy s ths.
Proof.
  intros [Hnd HB] Hf. split; auto. intros k Hk. destruct (HB _ Hk) as ([|i] & x & Hi & Hx).
  - cbn in Hi. inversion Hi; subst. unfold fin_th in Hf. destruct (t_pc x); try discriminate.
  - exists i, x. auto.
Qed.

Lemma need_not_held s th l : ineed s th = Some (Some l) -> iholds (t_pc th) l = false.
Proof.
  destruct th as [pc ops idx]. unfold ineed. cbn [t_pc t_ops].
  destruct pc as [ | p | p | v rest | v k rest | e rest | e rest | e rest | e k rest | k x | k | ];
    try (destruct rest); try (intros H; inversion H; subst; reflexivity); try discriminate.
Qed.

Lemma idle_hold_nothing others l :
  (forall x, In x others -> t_pc x = PIdle) -> existsb (fun th => iholds (t_pc th) l) others = false.
Proof.
  induction others as [|y others IH]; cbn; intros H; [reflexivity|].
  rewrite (H y (or_introl eq_refl)). cbn. apply IH. intros x Hx. apply H. auto.
Qed.

Lemma alone_enabled s th others :
  (forall x, In x others -> t_pc x = PIdle) -> ineed s th <> None -> ienabled s (th :: others) 0 = true.
Proof.
  intros Ho Hn. eapply enabled_of; [reflexivity|].
  destruct (ineed s th) as [[l|]|] eqn:E; [|auto|congruence].
  right. exists l. split; auto. unfold iheld. cbn. rewrite (need_not_held _ _ _ E). cbn.
  apply idle_hold_nothing; auto.
Qed.

Lemma starts_idle scripts x : In x (map start_thread scripts) -> t_pc x = PIdle.
Proof. rewrite in_map_iff. intros (sc & <- & _). reflexivity. Qed.

(* the setup script runs to its end within the fuel `run_case` gives it *)
Definition setup_completes (v0 : Z) (setup : list iop) : bool :=
  fin_th (snd (run_alone_th 1000 (ish0 v0) (start_thread setup))).

(* A property of shared state and setup thread that every move of the setup script keeps holds after it;
   when the script has run to its end nothing is left of it.  A step may use chamP, local and pc_ok of the
   setup thread (F_script, F_subs, F_KIn ask for them).  The proof names the result of run_alone_th 1000 by an
   equation first: a tactic that met the term itself would start computing the thousand moves. *)
Lemma setup_inv (P : ish -> ithread -> Prop) v0 setup :
  (forall s th s1 th1 o,
      chamP s -> local s th -> pc_ok th -> P s th -> imove s 9 th = (s1, th1, o) -> P s1 th1) ->
  P (ish0 v0) (start_thread setup) ->
  exists th, P (run_alone 1000 (ish0 v0) (start_thread setup)) th /\
             (setup_completes v0 setup = true -> t_ops th = []).
Proof.
  intros Hstep H0. unfold setup_completes. rewrite run_alone_fst.
  destruct (run_alone_th 1000 (ish0 v0) (start_thread setup)) as [s th] eqn:Er. cbn [fst snd].
  exists th. split; [|intros Hc; apply (fin_th_inv _ Hc)].
  pose proof (run_alone_th_inv (fun s th => (chamP s /\ local s th /\ pc_ok th) /\ P s th)) as H.
  specialize (H) with (fuel := 1000) (s := ish0 v0) (th := start_thread setup). rewrite Er in H. apply H.
  - intros s0 th0 s1 th1 o [(Hc & Hl & Hp) HP] _ Hm. split; [|eauto].
    split; [|split; [eapply F_local_self; eauto|eapply F_pcok; eauto]].
    eapply F_cham; eauto. exact (local_unsP _ _ Hl).
  - split; [|exact H0]. split; [intros E; discriminate|split; exact I].
Qed.

Lemma names_ok_nodup setup scripts :
  names_ok setup scripts = true -> NoDup (subscribed_in (concat (setup :: scripts))).
Proof. unfold names_ok. rewrite nodupb_NoDup. auto. Qed.

(* running the setup script alone = moves of thread 0 in the configuration where the other threads have
   not started: what these moves keep, given Core, holds with Core when the script stops *)
Lemma after_setup (I : ish -> list ithread -> Prop) v0 setup scripts :
  names_ok setup scripts = true ->
  (forall s ths t' th s1 th1 o,
      Core s ths -> I s ths -> ienabled s ths 0 = true -> nth_error ths 0 = Some th ->
      imove s t' th = (s1, th1, o) -> I s1 (set_th ths 0 th1)) ->
  I (ish0 v0) (map start_thread (setup :: scripts)) ->
  let r := run_alone_th 1000 (ish0 v0) (start_thread setup) in
  Core (fst r) (snd r :: map start_thread scripts) /\ I (fst r) (snd r :: map start_thread scripts).
Proof.
  intros Hn Hstep H0. set (others := map start_thread scripts).
  apply (run_alone_th_inv (fun s th => Core s (th :: others) /\ I s (th :: others))).
  - intros s th s1 th1 o [HC HI] Hne Hm.
    assert (He : ienabled s (th :: others) 0 = true) by (apply alone_enabled; [apply starts_idle|exact Hne]).
    split; [exact (Core_step _ _ 0 _ _ _ _ _ HC He eq_refl Hm)|exact (Hstep _ _ _ _ _ _ _ HC HI He eq_refl Hm)].
  - split; [apply (Core_init v0 (setup :: scripts)), names_ok_nodup, Hn|exact H0].
Qed.

Lemma Core_after_setup v0 setup scripts :
  names_ok setup scripts = true ->
  Core (run_alone 1000 (ish0 v0) (start_thread setup)) (map start_thread scripts).
Proof.
  intros Hn. rewrite run_alone_fst. eapply Core_tail. apply (after_setup (fun _ _ => True)); auto.
Qed.

Lemma Busy_after_setup v0 setup scripts :
  names_ok setup scripts = true -> setup_completes v0 setup = true ->
  Busy (run_alone 1000 (ish0 v0) (start_thread setup)) (map start_thread scripts).
Proof.
  intros Hn Hc. rewrite run_alone_fst. eapply Busy_tail; [|exact Hc]. apply (after_setup Busy); auto.
  - intros; eapply Busy_step; eauto.
  - split; [constructor|intros k []].
Qed.

Lemma no_overlap_irun sched s ths s' ths' tr :
  Core s ths -> Busy s ths -> irun s ths sched = (s', ths', tr) -> no_overlap tr = true.
Proof.
  intros HC HB. apply (irun_forallb _ (fun s ths => Core s ths /\ Busy s ths)); [|auto].
  intros s0 ths0 t th s1 th1 o [HC0 HB0] He Hn Hm. split; [|split; [eapply Core_step|eapply Busy_step]; eauto].
  intros [] Hx; try reflexivity. destruct (F_event _ _ _ _ _ _ _ Hm Hx) as [H1 H2].
  rewrite (no_ovl _ _ _ _ _ _ _ _ _ HC0 HB0 He Hn Hm H1) in H2. discriminate.
Qed.

(* C10: no probe callback runs on two threads at once *)
Theorem il_no_overlap v0 setup scripts sched :
  names_ok setup scripts = true -> setup_completes v0 setup = true ->
  let '(tr, e, fin) := run_case v0 setup scripts sched in no_overlap tr = true.
Proof.
  intros Hn Hc. apply run_case_irun. intros s ths tr Er. eapply no_overlap_irun; [| |exact Er].
  - apply Core_after_setup; auto.
  - apply Busy_after_setup; auto.
Qed.
