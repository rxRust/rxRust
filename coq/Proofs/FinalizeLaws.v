(* finalize, for every sequence of input calls and unsubscriptions: the callback runs at most once, and
   exactly once if the subscription is unsubscribed (any shape) or the input of the bare operator
   terminates; segment by segment it runs at the first trigger and nowhere else, for the operator alone,
   behind a take and in front of one, except that a subject as input drops the operator unseen once a
   take in front of it has finished (refuted below, and excluded by `gap`). *)
From RxSpec Require Import FinalizeSpec.
Local Open Scope nat_scope.

Lemma calls_app a b : calls (a ++ b) = calls a + calls b.
Proof. unfold calls. rewrite filter_app, app_length. reflexivity. Qed.

Lemma fin_step_spec s e :
  calls (snd (fin_step s e)) = (if z_func s && is_term e then 1 else 0) /\
  z_func (fst (fin_step s e)) = z_func s && negb (is_term e) /\ z_src (fst (fin_step s e)) = z_src s.
Proof. unfold fin_step. destruct e, (z_func s) eqn:E; cbn; rewrite ?E; auto. Qed.

Lemma fin_steps_calls : forall es s,
  calls (snd (fin_steps s es)) + (if z_func (fst (fin_steps s es)) then 1 else 0) = (if z_func s then 1 else 0).
Proof.
  induction es as [|e r IH]; intros s; [cbn; lia|].
  cbn [fin_steps]. destruct (fin_step_spec s e) as (C & F & _). destruct (fin_step s e) as [s1 o1]. cbn [fst snd] in *.
  specialize (IH s1). destruct (fin_steps s1 r) as [s2 o2]. cbn [fst snd] in *. rewrite calls_app, C.
  rewrite F in IH. destruct (z_func s), (is_term e); cbn in *; lia.
Qed.

Lemma take_step_frame n s e :
  z_src (fst (take_step n s e)) = z_src s /\ z_func (fst (take_step n s e)) = z_func s.
Proof.
  unfold take_step. destruct (z_take_alive s), e; auto; destruct (z_take_hits s <? n); auto; destruct (S (z_take_hits s) =? n); auto.
Qed.

Lemma calls_outs es : calls (map ZOut es) = 0.
Proof. induction es; auto. Qed.

Lemma after_steps_frame n : forall os s,
  calls (snd (after_steps n s os)) = calls os /\ z_src (fst (after_steps n s os)) = z_src s /\
  z_func (fst (after_steps n s os)) = z_func s.
Proof.
  induction os as [|o r IH]; intros s; [cbn; auto|].
  destruct o; cbn [after_steps].
  - destruct (take_step_frame n s e) as (Ts & Tf). destruct (take_step n s e) as [s1 o1]. cbn [fst] in *.
    destruct (IH s1) as (C & Is & If). destruct (after_steps n s1 r) as [s2 o2]. cbn [fst snd] in *.
    rewrite calls_app, calls_outs, C. repeat split; congruence.
  - destruct (IH s) as (C & I). destruct (after_steps n s r) as [s2 o2]. cbn [fst snd] in *.
    split; [|exact I]. change (S (calls o2) = S (calls r)). rewrite C. reflexivity.
Qed.

(* the idea of at-most-once: calls made + callback still in the cell is conserved by every stimulus *)
Lemma zstep_conserve sh s st :
  calls (snd (zstep sh s st)) + (if z_func (fst (zstep sh s st)) then 1 else 0) = (if z_func s then 1 else 0).
Proof.
  destruct st as [e|]; cbn [zstep].
  - destruct (z_src s); [|cbn; lia].
    set (s0 := if is_term e then _ else s). assert (H0 : z_func s0 = z_func s) by (unfold s0; destruct (is_term e); reflexivity).
    rewrite <- H0. destruct sh.
    + destruct (fin_step_spec s0 e) as (C & F & _). rewrite C, F. destruct (z_func s0), (is_term e); cbn; lia.
    + destruct (take_step_frame n s0 e) as (_ & <-). destruct (take_step n s0 e) as [s1 es]. apply fin_steps_calls.
    + destruct (evict && is_term e && negb (z_take_alive s0)); [cbn; lia|].
      destruct (fin_step_spec s0 e) as (C & F & _). destruct (fin_step s0 e) as [s1 os]. cbn [fst snd] in *.
      destruct (after_steps_frame n os s1) as (C2 & _ & F2). rewrite C2, F2, C, F. destruct (z_func s0), (is_term e); cbn; lia.
  - destruct (z_unsub s); [cbn; lia|]. cbn. destruct (z_func s); cbn; lia.
Qed.

(* the operator's state after the stimuli sts *)
Fixpoint zfinal (sh : fshape) (s : zstate) (sts : list zstim) : zstate :=
  match sts with [] => s | st :: r => zfinal sh (fst (zstep sh s st)) r end.

Theorem run_conserve sh : forall sts s,
  calls (zrun sh s sts) + (if z_func (zfinal sh s sts) then 1 else 0) = (if z_func s then 1 else 0).
Proof.
  induction sts as [|st r IH]; intros s; [cbn; lia|].
  cbn [zrun zfinal]. pose proof (zstep_conserve sh s st) as C. destruct (zstep sh s st) as [s1 o]. cbn [fst snd] in *.
  rewrite calls_app. specialize (IH s1). lia.
Qed.

Lemma zrun_app sh : forall a s b, zrun sh s (a ++ b) = zrun sh s a ++ zrun sh (zfinal sh s a) b.
Proof.
  induction a as [|st r IH]; intros s b; [reflexivity|].
  cbn [app zrun zfinal]. destruct (zstep sh s st) as [s1 o]. cbn [fst]. rewrite IH, app_assoc. reflexivity.
Qed.

Lemma zfinal_app sh : forall a s b, zfinal sh s (a ++ b) = zfinal sh (zfinal sh s a) b.
Proof. induction a as [|st r IH]; intros s b; [reflexivity|]. cbn. apply IH. Qed.

Theorem finalize_at_most_once sh sts : calls (run_finalize sh sts) <= 1.
Proof. unfold run_finalize. pose proof (run_conserve sh sts zstate0) as H. cbn in H. destruct (z_func _); lia. Qed.

Lemma func_gone_stays sh : forall sts s, z_func s = false -> z_func (zfinal sh s sts) = false.
Proof.
  intros sts s H. pose proof (run_conserve sh sts s) as C. rewrite H in C. destruct (z_func (zfinal sh s sts)); [lia|reflexivity].
Qed.

Lemma once_after sh a st b :
  z_func (fst (zstep sh (zfinal sh zstate0 a) st)) = false -> calls (run_finalize sh (a ++ st :: b)) = 1.
Proof.
  intros H. pose proof (run_conserve sh (a ++ st :: b) zstate0) as C.
  rewrite zfinal_app in C. cbn [zfinal] in C. rewrite (func_gone_stays sh b _ H), Nat.add_0_r in C. exact C.
Qed.

(* exactly once for a subscription whose input terminates (operator directly behind the input) *)
Theorem finalize_term_once a b e :
  is_term e = true -> z_src (zfinal FPlain zstate0 a) = true ->
  calls (run_finalize FPlain (a ++ ZSrc e :: b)) = 1.
Proof.
  intros He Hs. apply once_after. cbn [zstep]. rewrite Hs.
  rewrite (proj1 (proj2 (fin_step_spec _ e))), He. apply Bool.andb_false_r.
Qed.

(* not before: as long as the input only emits items and nobody unsubscribes, no call *)
Theorem finalize_not_before : forall vs s, calls (zrun FPlain s (map (fun v => ZSrc (Next v)) vs)) = 0.
Proof.
  induction vs as [|v r IH]; intros s; [reflexivity|]. cbn [map zrun zstep is_term].
  destruct (z_src s); cbn [fin_step fst snd app]; [|apply IH]. change (calls (zrun FPlain s (map (fun v => ZSrc (Next v)) r)) = 0). apply IH.
Qed.

(* the call comes right after the terminal has been forwarded, or alone on unsubscribe *)
Theorem finalize_plain_step s st :
  z_func s = true ->
  snd (zstep FPlain s st) =
  match st with
  | ZSrc e => if z_src s then (if is_term e then [ZOut e; ZCall] else [ZOut e]) else []
  | ZUnsub => if z_unsub s then [] else [ZCall]
  end.
Proof.
  intros H. destruct st as [e|]; cbn [zstep].
  - destruct (z_src s); [|reflexivity]. destruct e; cbn; rewrite ?H; reflexivity.
  - destruct (z_unsub s); [reflexivity|]. cbn. rewrite H. reflexivity.
Qed.

Lemma fin_step_src s e : z_src (fst (fin_step s e)) = z_src s.
Proof. apply fin_step_spec. Qed.

Lemma after_steps_src n : forall os s, z_src (fst (after_steps n s os)) = z_src s.
Proof. intros os s. apply after_steps_frame. Qed.

(* As long as the callback has not run, the operator's state is a function of what the specification has
   counted: the input is alive as the specification says, nobody has unsubscribed, and a take has counted the
   items up to its limit and is open while they are below it (take(0) never closes by counting).  Every
   case of the step lemma below then is: run the step on that state, compare with the state of the next count. *)
Definition abs (sh : fshape) (sp : fspec) : zstate :=
  match sh with
  | FPlain => {| z_src := f_alive sp; z_take_alive := true; z_take_hits := 0; z_func := true; z_unsub := false |}
  | FTakeBefore n | FTakeAfter _ n =>
      {| z_src := f_alive sp; z_take_alive := negb ((0 <? n) && (n <=? f_items sp)); z_take_hits := Nat.min (f_items sp) n;
         z_func := true; z_unsub := false |}
  end.

Definition SInv (sh : fshape) (s : zstate) (sp : fspec) : Prop :=
  if f_fired sp then z_func s = false
  else s = abs sh sp /\ match sh with FTakeBefore n => n = 0 \/ f_items sp < n | _ => True end.

Lemma spec_step gap sh s sp st :
  gap = true \/ evicting sh = false ->
  SInv sh s sp ->
  let expect := is_trigger gap sh sp st && negb (f_fired sp) in
  seg_ok expect (snd (zstep sh s st)) = true /\
  SInv sh (fst (zstep sh s st)) (spec_next sp st (f_fired sp || expect)).
Proof.
  intros Hg I. unfold SInv in I. destruct (f_fired sp) eqn:Ef.
  - (* the callback has run: by conservation no call, and the cell stays empty *)
    pose proof (zstep_conserve sh s st) as C. rewrite I in C.
    destruct (z_func (fst (zstep sh s st))) eqn:F; cbn in C; [lia|]. rewrite Nat.add_0_r in C.
    rewrite Bool.andb_false_r. cbn [orb]. split.
    + unfold seg_ok. rewrite C. reflexivity.
    + unfold SInv. destruct st as [e|]; cbn; try destruct (f_alive sp); exact F.
  - destruct I as [-> Hb]. rewrite Bool.andb_true_r. cbn [orb]. destruct sp as [al k fi]. cbn [f_fired] in Ef. subst fi.
    destruct st as [e|]; [|destruct sh; split; reflexivity].   (* unsubscribe: the call alone *)
    destruct al; [|destruct sh; split; cbn; auto].               (* the input has gone: nothing *)
    destruct sh as [|n|ev n].
    + destruct e; cbn; rewrite ?Bool.andb_false_r; repeat split.
    + (* take before: the item that completes the take is a trigger *)
      cbn [abs f_alive f_items] in *. destruct Hb as [->|Lt].
      * rewrite Nat.min_0_r. destruct e; cbn; rewrite ?Bool.andb_false_r, ?Nat.min_0_r; repeat split; auto.
      * rewrite (Nat.min_l k n), (proj2 (Nat.leb_gt n k) Lt), Bool.andb_false_r by lia.
        destruct e as [v|x|]; cbn [zstep z_src is_term take_step z_take_hits z_take_alive negb];
          rewrite ?(proj2 (Nat.ltb_lt k n) Lt); [|cbn; rewrite ?Bool.andb_false_r; repeat split..].
        cbn [is_trigger is_term is_next andb orb f_alive f_items]. destruct (Nat.eqb_spec (S k) n) as [E|E]; cbn -[Nat.min Nat.ltb Nat.leb]; [repeat split|].
        rewrite (Nat.min_l (S k) n), (proj2 (Nat.leb_gt n (S k))), Bool.andb_false_r by lia. repeat split. right. lia.
    + (* take after: a terminal is dropped unseen exactly when it falls into the gap *)
      cbn [abs f_alive f_items] in *. set (X := (0 <? n) && (n <=? k)).
      assert (G : gap && (if ev then X else false) = ev && X).
      { destruct ev; [destruct Hg as [->|D]; [reflexivity|discriminate D]|apply Bool.andb_false_r]. }
      destruct e as [v|x|]; cbn -[Nat.min Nat.ltb Nat.leb Nat.eqb]; fold X.
      2,3: rewrite G, Bool.negb_involutive, Bool.andb_true_r, Bool.orb_false_r.
      (* a terminal: evicted, nothing happens; otherwise it passes the operator, then the take if that is open *)
      2,3: destruct (ev && X); [repeat split|]; destruct X; cbn -[Nat.min Nat.ltb Nat.leb]; repeat split.
      (* an item *)
      rewrite Bool.andb_false_r. cbn [andb]. unfold X. destruct (Nat.ltb_spec k n) as [Lt|Ge].
      * rewrite (Nat.min_l k n), (proj2 (Nat.ltb_lt k n) Lt), (proj2 (Nat.leb_gt n k) Lt), Bool.andb_false_r by lia. cbn [negb].
        destruct (Nat.eqb_spec (S k) n) as [E|E]; cbn -[Nat.min Nat.ltb Nat.leb].
        -- rewrite (Nat.min_l (S k) n), (proj2 (Nat.ltb_lt 0 n)), (proj2 (Nat.leb_le n (S k))) by lia. repeat split.
        -- rewrite (Nat.min_l (S k) n), (proj2 (Nat.leb_gt n (S k))), Bool.andb_false_r by lia. repeat split.
      * rewrite (Nat.min_r k n), Nat.ltb_irrefl, (Nat.min_r (S k) n), !(proj2 (Nat.leb_le n _)) by lia. repeat split.
Qed.

Lemma sinv1 c sh : SInv sh (zstate1 c) (fspec1 c).
Proof. destruct sh as [|[|n]|ev [|n]]; repeat split; auto. right. cbn. lia. Qed.

Lemma sinv0 sh : SInv sh zstate0 fspec0.
Proof. exact (sinv1 true sh). Qed.

(* the invariant holds along every run: for the take shapes with the gap's terminals not counted *)
Lemma sinv_final sh : forall sts s sp, SInv sh s sp -> exists sp', SInv sh (zfinal sh s sts) sp'.
Proof.
  induction sts as [|st r IH]; intros s sp I; [exists sp; exact I|]. cbn [zfinal].
  exact (IH _ _ (proj2 (spec_step true sh s sp st (or_introl eq_refl) I))).
Qed.

(* exactly once for an unsubscribed subscription: wherever the unsubscription happens *)
Theorem finalize_unsub_once sh a b : calls (run_finalize sh (a ++ ZUnsub :: b)) = 1.
Proof.
  apply once_after. cbn [zstep]. destruct (z_unsub (zfinal sh zstate0 a)) eqn:Eu; [|reflexivity].
  destruct (sinv_final sh a _ _ (sinv0 sh)) as (sp' & I). unfold SInv in I. destruct (f_fired sp'); [exact I|].
  destruct I as [E _]. rewrite E in Eu. destruct sh; discriminate Eu.
Qed.

(* on unsubscription the input is disconnected before the callback runs *)
Lemma unsub_disconnects sh s : z_src (fst (zstep sh s ZUnsub)) = false \/ z_unsub s = true.
Proof. cbn [zstep]. destruct (z_unsub s); [right; reflexivity|left; reflexivity]. Qed.

Theorem finalize_meets_spec gap sh : gap = true \/ evicting sh = false ->
  forall sts s sp, SInv sh s sp -> fin_ok gap sh sp sts (zrun_segs sh s sts) = 0.
Proof.
  intros Hg. induction sts as [|st r IH]; intros s sp I; [reflexivity|].
  cbn [zrun_segs]. destruct (spec_step gap sh s sp st Hg I) as [Hok Hinv].
  destruct (zstep sh s st) as [s1 o]. cbn [fst snd] in *. cbn [fin_ok]. rewrite Hok. apply IH, Hinv.
Qed.

(* the full statement fails where a subject evicts the operator's observer because a take
   downstream has finished: the subject's terminal is not followed by the callback *)
Theorem finalize_downstream_finished_refuted :
  exists sts, fin_ok false (FTakeAfter true 1) fspec0 sts (zrun_segs (FTakeAfter true 1) zstate0 sts) = 1.
Proof. exists [ZSrc (Next (VZ 1)); ZSrc Done]. vm_compute. reflexivity. Qed.

Lemma zrun_segs_concat sh : forall sts s, concat (zrun_segs sh s sts) = zrun sh s sts.
Proof.
  induction sts as [|st r IH]; intros s; [reflexivity|]. cbn [zrun_segs zrun].
  destruct (zstep sh s st) as [s1 o]. cbn [concat]. rewrite IH. reflexivity.
Qed.

(* finalize_threads: the first take of the shared cell runs the callback, whatever the interleaving *)
Lemma rcalls_cons x l : rcalls (x :: l) = (match x with Some _ => 1 | None => 0 end) + rcalls l.
Proof. unfold rcalls. cbn. destruct x; reflexivity. Qed.

Lemma rrun_empty : forall sched, rcalls (rrun false sched) = 0.
Proof. induction sched as [|[t|t] r IH]; cbn [rrun]; rewrite ?rcalls_cons; auto. Qed.

Theorem race_once : forall a t b,
  (forall t', ~ In (RTake t') a) ->
  rcalls (rrun true (a ++ RTake t :: b)) = 1 /\
  nth_error (rrun true (a ++ RTake t :: b)) (length a) = Some (Some t).
Proof.
  induction a as [|x a IH]; intros t b Hn.
  - cbn [app rrun length nth_error]. rewrite rcalls_cons, rrun_empty. auto.
  - destruct x as [t'|t']; [exfalso; apply (Hn t'); left; reflexivity|].
    cbn [app rrun length nth_error]. rewrite rcalls_cons. apply IH. intros t'' Hin. apply (Hn t''). right. exact Hin.
Qed.

Theorem race_at_most_once : forall sched cell, rcalls (rrun cell sched) <= 1.
Proof.
  induction sched as [|[t|t] r IH]; intros cell; cbn [rrun]; rewrite ?rcalls_cons; [cbn; lia| |apply IH].
  destruct cell; [rewrite rrun_empty; lia|apply IH].
Qed.
