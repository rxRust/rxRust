(* The subscription algebra: late additions to an unsubscribed composite are torn down,
   is_closed() is sound, and closed stays closed. *)
From RxModel Require Import Subscr.
Local Open Scope nat_scope.

Lemma alive_kill s k j : leaf_alive (kill_leaf s k) j = if Nat.eqb k j then false else leaf_alive s j.
Proof.
  unfold leaf_alive, kill_leaf. simpl. destruct (Nat.eqb k j); reflexivity.
Qed.

Lemma kill_all_spec : forall ks s,
  let s' := fst (kill_all s ks) in
  multi_cell s' = multi_cell s /\ appended s' = appended s /\
  (forall j, leaf_alive s' j = if existsb (Nat.eqb j) ks then false else leaf_alive s j).
Proof.
  induction ks as [|k r IH]; intros s; [cbn; auto|].
  cbn [kill_all]. destruct (leaf_alive s k) eqn:Ea.
  - specialize (IH (kill_leaf s k)). destruct (kill_all (kill_leaf s k) r) as [s2 o2]. cbn [fst] in *.
    destruct IH as (I1 & I2 & I3). repeat split; auto. intros j. rewrite I3, alive_kill. cbn [existsb].
    rewrite (Nat.eqb_sym j k). destruct (Nat.eqb k j); cbn; destruct (existsb (Nat.eqb j) r); reflexivity.
  - specialize (IH s). destruct (kill_all s r) as [s2 o2]. cbn [fst] in *.
    destruct IH as (I1 & I2 & I3). repeat split; auto. intros j. rewrite I3. cbn [existsb].
    destruct (Nat.eqb_spec j k) as [->|Hne]; cbn; [destruct (existsb (Nat.eqb k) r); auto|reflexivity].
Qed.

(* the composite's bookkeeping: while it is open its vector holds every leaf ever appended; once it is
   unsubscribed they are all dead *)
Definition Winv (s : cstate) : Prop :=
  match multi_cell s with
  | Some l => forall k, In k (appended s) -> In k l
  | None => forall k, In k (appended s) -> leaf_alive s k = false
  end.

Lemma existsb_In k l : In k l -> existsb (Nat.eqb k) l = true.
Proof. intros H. apply existsb_exists. exists k. split; [exact H|apply Nat.eqb_refl]. Qed.

(* once the composite is unsubscribed it is enough that every appended leaf was dead or is among the killed *)
Lemma kill_all_winv ks s :
  match multi_cell s with
  | Some _ => Winv s
  | None => forall k, In k (appended s) -> leaf_alive s k = false \/ In k ks
  end -> Winv (fst (kill_all s ks)).
Proof.
  destruct (kill_all_spec ks s) as (K1 & K2 & K3). unfold Winv. rewrite K1, K2.
  destruct (multi_cell s); [auto|]. intros H k Hk. rewrite K3.
  destruct (H k Hk) as [D|I]; [rewrite D; destruct (existsb _ _); reflexivity|rewrite (existsb_In k ks I); reflexivity].
Qed.

Lemma unsub_t_spec : forall t s,
  let s' := fst (unsub_t s t) in
  (multi_cell s' = multi_cell s \/ multi_cell s' = None) /\
  (forall j, leaf_alive s j = false -> leaf_alive s' j = false) /\
  (Winv s -> Winv s').
Proof.
  induction t as [|k| |a IHa b IHb]; intros s; cbn [unsub_t].
  - cbn. auto.
  - destruct (kill_all_spec [k] s) as (K1 & _ & K3). split; [left; exact K1|]. split.
    + intros j Hj. rewrite K3, Hj. destruct (existsb _ _); reflexivity.
    + intros W. apply kill_all_winv. unfold Winv in *. destruct (multi_cell s); auto.
  - destruct (multi_cell s) as [l|] eqn:Em; [|cbn; auto].
    destruct (kill_all_spec l {| leaves := leaves s; multi_cell := None; appended := appended s |}) as (K1 & _ & K3).
    split; [right; exact K1|]. split.
    + intros j Hj. rewrite K3. destruct (existsb _ _); auto.
    + intros W. apply kill_all_winv. unfold Winv in W. rewrite Em in W. cbn. auto.
  - specialize (IHa s). destruct (unsub_t s a) as [s1 o1]. specialize (IHb s1). destruct (unsub_t s1 b) as [s2 o2].
    cbn [fst] in *. destruct IHa as (A1 & A2 & A3). destruct IHb as (B1 & B2 & B3). split; [|auto].
    destruct B1 as [B|B]; [|right; exact B]. destruct A1 as [A|A]; [left|right]; congruence.
Qed.

Lemma dead_stays_dead s op j : leaf_alive s j = false -> leaf_alive (fst (cstep s op)) j = false.
Proof.
  intros H. destruct op; cbn [cstep].
  - destruct (multi_cell s); cbn [fst]; [exact H|].
    destruct (kill_all_spec [k] {| leaves := leaves s; multi_cell := None; appended := k :: appended s |}) as (_ & _ & K3).
    rewrite K3. destruct (existsb _ _); auto.
  - apply unsub_t_spec, H.
  - exact H.
  - cbn [fst]. destruct (leaf_alive s k); [rewrite alive_kill; destruct (Nat.eqb k j); auto|exact H].
Qed.

Lemma step_winv s op : Winv s -> Winv (fst (cstep s op)).
Proof.
  intros W. destruct op; cbn [cstep].
  - unfold Winv in W. destruct (multi_cell s) as [l|] eqn:Em; cbn [fst].
    + unfold Winv. cbn. intros j [<-|Hj]; apply in_or_app; [right; left; reflexivity|left; apply W, Hj].
    + apply kill_all_winv. cbn. intros j [<-|Hj]; [right; left; reflexivity|left; exact (W j Hj)].
  - apply unsub_t_spec, W.
  - exact W.
  - cbn [fst]. destruct (leaf_alive s k) eqn:Ea; [|exact W]. unfold Winv in *. cbn [kill_leaf multi_cell appended].
    destruct (multi_cell s); [exact W|]. intros j Hj. rewrite alive_kill, (W j Hj). destruct (Nat.eqb k j); reflexivity.
Qed.

Lemma reach_winv h : forall s, Winv s -> Winv (cfinal s h).
Proof. induction h as [|op r IH]; intros s W; [exact W|]. cbn. apply IH, step_winv, W. Qed.

Lemma winv0 : Winv cstate0.
Proof. intros k []. Qed.

(* a subscription appended to an unsubscribed composite is unsubscribed at once: in every reachable
   state whose composite has been unsubscribed, every leaf ever appended (before or after) is dead *)
Theorem late_additions_torn_down h :
  let s := cfinal cstate0 h in
  multi_cell s = None -> forall k, In k (appended s) -> leaf_alive s k = false.
Proof.
  intros s Hn k Hk. pose proof (reach_winv h cstate0 winv0) as W. fold s in W. unfold Winv in W. rewrite Hn in W. apply W, Hk.
Qed.

(* is_closed() is sound: if it answers true every leaf the subscription holds is dead
   (`_alg`: for the subscription algebra, beside C17's closed_sound for the operators' subscriptions) *)
Theorem closed_sound_alg : forall t s, Winv s -> closed_t s t = true -> forall k, In k (under s t) -> leaf_alive s k = false.
Proof.
  induction t as [|k0| |a IHa b IHb]; intros s W Hc k Hk; cbn [under closed_t] in *.
  - destruct Hk.
  - destruct Hk as [<-|[]]. apply Bool.negb_true_iff, Hc.
  - unfold Winv in W. destruct (multi_cell s) as [l|].
    + apply Bool.negb_true_iff. apply (proj1 (forallb_forall _ _) Hc k), W, Hk.
    + apply W, Hk.
  - apply andb_prop in Hc. destruct Hc as [Ha Hb]. apply in_app_or in Hk. destruct Hk; [apply (IHa s W Ha)|apply (IHb s W Hb)]; assumption.
Qed.

Lemma cstep_multi s op : (forall k, op = CAppend k -> multi_cell s = None) ->
  multi_cell (fst (cstep s op)) = multi_cell s \/ multi_cell (fst (cstep s op)) = None.
Proof.
  intros Hop. destruct op; cbn [cstep].
  - rewrite (Hop k eq_refl). right. apply kill_all_spec.
  - apply unsub_t_spec.
  - left. reflexivity.
  - left. destruct (leaf_alive s k); reflexivity.
Qed.

(* closed stays closed, except that appending a live leaf to a composite that was never
   unsubscribed re-opens it *)
Theorem closed_stable : forall t s op,
  closed_t s t = true -> (forall k, op = CAppend k -> multi_cell s = None) ->
  closed_t (fst (cstep s op)) t = true.
Proof.
  induction t as [|k0| |a IHa b IHb]; intros s op Hc Hop; cbn [closed_t] in *.
  - reflexivity.
  - apply Bool.negb_true_iff. apply dead_stays_dead. apply Bool.negb_true_iff, Hc.
  - destruct (cstep_multi s op Hop) as [M|M]; rewrite M; [|reflexivity].
    destruct (multi_cell s) as [l|]; [|reflexivity]. apply forallb_forall. intros j Hj.
    apply Bool.negb_true_iff, dead_stays_dead, Bool.negb_true_iff. exact (proj1 (forallb_forall _ _) Hc j Hj).
  - apply andb_prop in Hc. destruct Hc as [Ha Hb]. rewrite (IHa s op Ha Hop), (IHb s op Hb Hop). reflexivity.
Qed.

(* ... and indeed an empty composite reports closed and is re-opened by an append *)
Theorem closed_reopened_by_append :
  exists h, crun cstate0 h = [CRet true; CRet false].
Proof. exists [CClosed SMultiT; CAppend 0; CClosed SMultiT]. reflexivity. Qed.
