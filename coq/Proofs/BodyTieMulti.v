(* MultiSubscription as translated from /repo/src is the composite machine, for composites of up to three members (the
   vector is of unknown length in general; its loops are run on the concrete shapes). *)
From RxModel Require Import BodyAbsMulti.
From RxGen Require Import Bodies.
From RxProofs Require Import BodyTie.
Open Scope string_scope.
Open Scope list_scope.

Lemma multi_ok : multi_agrees_upto bodies 3.
Proof.
  intros s o Hb. destruct o as [| |[? ?]| |]; cbn [mcall fst snd]; find_once.
  all: destruct s as [[|x1 [|x2 [|x3 [|x4 l]]]]|]; [ | | | | cbn [length] in Hb; exfalso; lia | ].
  all: try destruct x1 as [[? ?]|]; try destruct x2 as [[? ?]|]; try destruct x3 as [[? ?]|].
  (* only is_closed() reads the members' flags *)
  all: try solve [vm_compute; reflexivity].
  all: repeat match goal with b : bool |- _ => destruct b end; vm_compute; reflexivity.
Qed.

(* consequences, for the machine: a composite that has been unsubscribed tears a late addition down at once, and says closed *)
Lemma late_addition_torn_down c k : mstep None (MAppend (c, k)) = (None, [mark k], VUnit).
Proof. reflexivity. Qed.

Lemma unsubscribed_is_closed s : snd (mstep (fst (fst (mstep s MUnsubscribe))) MIsClosed) = VBool true.
Proof. destruct s; reflexivity. Qed.
