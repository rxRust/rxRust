(* Ileave.v: the trace properties of C10 / C06 / C02 for every setup script, every set of thread
   scripts and EVERY schedule: here il_grammar, il_quiet_after_unsub and, all together, il_all.
   (il_no_deadlock, il_no_panic, il_values are in IleaveBase.v -- they need no hypothesis;
   il_no_overlap is in IleaveInv.v, il_common_order in IleaveOrder.v.) *)
From RxProofs Require Export IleaveOrder.
Local Open Scope nat_scope.

(* probe k has been called for the last time: its cell is dead and no thread is inside its callback *)
Definition Dead (s : ish) (ths : list ithread) (k : nat) : Prop :=
  cell_known s k = true /\ cell_alive s k = false /\
  forall i th, nth_error ths i = Some th -> in_cb (t_pc th) <> Some k.

Lemma Dead_step s ths t th s1 th1 o k :
  Core s ths -> Dead s ths k -> nth_error ths t = Some th -> imove s t th = (s1, th1, o) ->
  Dead s1 (set_th ths t th1) k.
Proof.
  intros HC (Hkn & Hd & Hn) Ht Hm. pose proof (fun k' => c_fresh _ _ HC _ _ k' Ht) as Hf.
  destruct (dead_stays _ _ _ _ _ _ k Hm (c_pcok _ _ HC _ _ Ht) Hf Hkn Hd) as [Hkn1 Hd1].
  split; [auto|split; [auto|]]. apply (set_th_all (fun _ x => in_cb (t_pc x) <> Some k) _ _ _ _ Ht); [|eauto].
  (* to enter the callback the mover needs the cell alive, or the name fresh *)
  intros Hin. destruct (F_incb _ _ _ _ _ _ _ Hm Hin) as (_ & [(Ha & _)|(_ & r & Hops)]); [congruence|].
  rewrite Hf in Hkn; [discriminate|]. unfold subs. rewrite Hops. cbn. auto.
Qed.

Definition gstep (D : list nat) (x : itr) : option (list nat) :=
  match x with
  | TEv k (YItem _) _ _ => if imem k D then None else Some D
  | TEv k (YTerm _) _ _ => if imem k D then None else Some (k :: D)
  | _ => Some D
  end.

Lemma grammar_walks D tr :
  grammar_walk D tr = match walks gstep D tr with Some _ => true | None => false end.
Proof.
  revert D. induction tr as [|x tr IH]; intros D; cbn; [reflexivity|].
  destruct x as [ | k [v|e] t j | | | | ]; cbn; rewrite ?IH; try reflexivity;
    destruct (imem k D); cbn; auto.
Qed.

Definition GInv (D : list nat) (s : ish) (ths : list ithread) : Prop := forall k, In k D -> Dead s ths k.

Lemma GInv_step D s ths t th s1 th1 o :
  Core s ths -> GInv D s ths -> nth_error ths t = Some th -> imove s t th = (s1, th1, o) ->
  exists D', walks gstep D o = Some D' /\ GInv D' s1 (set_th ths t th1).
Proof.
  intros HC HG Ht Hm.
  assert (HG1 : GInv D s1 (set_th ths t th1)) by (intros k Hk; eapply Dead_step; eauto).
  destruct (in_cb (t_pc th)) as [k|] eqn:Ec.
  2:{ exists D. split; auto. apply walks_silent; [|eapply F_noev; eauto].
      intros a x Hx. destruct x; try discriminate; reflexivity. }
  destruct (F_out _ _ _ _ _ _ _ Hm Ec) as (p & Ho).
  assert (imem k D = false) as HkD.
  { apply imem_false. intros Hk. destruct (HG _ Hk) as (_ & _ & Hn). eapply Hn; eauto. }
  rewrite Ho. cbn. rewrite HkD. destruct p as [v|e]; [exists D; auto|].
  exists (k :: D). split; auto. intros k' [<-|Hk']; [|apply HG1; auto].
  (* the terminal came from PInCbT: the cell was killed when it was taken, and the mover holds its lock *)
  destruct (F_event _ _ _ _ _ _ (TEv k (YTerm e) t (t_idx th)) Hm) as (_ & _ & [(? & ? & _ & Hp)|[(rest & e' & Hpc & _)|(? & _ & Hp)]]);
    [rewrite Ho; cbn; auto|discriminate| |discriminate].
  (* goals: the event is in o; PInCb and PInCbB hand over items, not e; PInCbT, which goes on *)
  pose proof (c_local _ _ HC _ _ Ht) as Hl. unfold local in Hl. rewrite Hpc in Hl. destruct Hl as [Hkn Hd].
  destruct (dead_stays _ _ _ _ _ _ k Hm (c_pcok _ _ HC _ _ Ht) (fun k' => c_fresh _ _ HC _ _ k' Ht) Hkn Hd) as [Hkn1 Hd1].
  split; [auto|split; [auto|]]. apply (set_th_all (fun _ x => in_cb (t_pc x) <> Some k) _ _ _ _ Ht).
  - intros Hin. destruct (F_incb _ _ _ _ _ _ _ Hm Hin) as [Hnone _]. congruence.
  - intros i x Hni Hi Hx. apply Hni. apply (c_mutex _ _ HC i t x th (LCell k) Hi Ht).
    + eapply cb_holds_cell; eauto.
    + rewrite Hpc. cbn. apply Nat.eqb_refl.
Qed.

Lemma grammar_irun sched s ths s' ths' tr :
  Core s ths -> irun s ths sched = (s', ths', tr) -> grammar_ok tr = true.
Proof.
  intros HC Hr. unfold grammar_ok. rewrite grammar_walks.
  destruct (irun_walks gstep (fun D s ths => Core s ths /\ GInv D s ths)) with (3 := Hr) (a := @nil nat)
    as (a' & -> & _); [|split; [exact HC|intros k []]|reflexivity].
  intros D s0 ths0 t th s1 th1 o [HC0 HG0] He Hn Hm.
  destruct (GInv_step _ _ _ _ _ _ _ _ HC0 HG0 Hn Hm) as (D' & Hw & HG1).
  exists D'. split; [exact Hw|]. split; [eapply Core_step; eauto|exact HG1].
Qed.

(* C06 (terminal is last), C01 per probe: nothing after its terminal *)
Theorem il_grammar v0 setup scripts sched :
  names_ok setup scripts = true ->
  let '(tr, e, fin) := run_case v0 setup scripts sched in grammar_ok tr = true.
Proof.
  intros Hn. apply run_case_irun. intros s ths tr Er. eapply grammar_irun; [|exact Er].
  apply Core_after_setup; auto.
Qed.

(* a script unsubscribes only probes that are known to have been subscribed: by the setup script
   (K) or earlier in the same script *)
Fixpoint us_ok (K : nat -> bool) (ops : list iop) : bool :=
  match ops with
  | [] => true
  | IUnsub k :: r => K k && us_ok K r
  | ISub k :: r | IBSub k :: r => us_ok (fun x => Nat.eqb k x || K x) r
  | _ :: r => us_ok K r
  end.

(* probe x is subscribed by the setup script *)
Definition in_setup (setup : list iop) (x : nat) : bool := imem x (subscribed_in setup).

(* every thread's script unsubscribes only probes of the setup script or probes it has subscribed itself before *)
Definition unsubs_ok (setup : list iop) (scripts : list (list iop)) : bool :=
  forallb (us_ok (in_setup setup)) scripts.

Lemma us_mono ops : forall K K' : nat -> bool,
  (forall x, K x = true -> K' x = true) -> us_ok K ops = true -> us_ok K' ops = true.
Proof.
  induction ops as [|o r IH]; intros K K' HK; cbn; [auto|].
  destruct o; try (apply IH; auto; fail).
  - apply IH. intros x Hx. apply orb_true_iff in Hx. apply orb_true_iff. destruct Hx; auto.
  - intros H. apply andb_true_iff in H. destruct H as [H1 H2]. apply andb_true_iff. split; auto.
    eapply IH; eauto.
  - apply IH. intros x Hx. apply orb_true_iff in Hx. apply orb_true_iff. destruct Hx; auto.
Qed.

Section Quiet.
(* the probes of the setup script: they have a cell, or (when the setup script did not get to
   them) nobody will ever subscribe them *)
Variable S0 : nat -> bool.

Definition KS (s : ish) (x : nat) : bool := cell_known s x || S0 x.

(* dropping the head of a script: what it subscribes must be known from then on *)
Lemma us_ok_tl (K K' : nat -> bool) o r :
  us_ok K (o :: r) = true -> (forall x, K x = true -> K' x = true) ->
  (forall k, o = ISub k \/ o = IBSub k -> K' k = true) -> us_ok K' r = true.
Proof.
  intros Hu Hm Hk.
  assert (Hadd : forall k, K' k = true -> forall x, Nat.eqb k x || K x = true -> K' x = true).
  { intros k Hk' x Hx. apply orb_true_iff in Hx. destruct Hx as [Hx|Hx]; [apply Nat.eqb_eq in Hx; subst|]; auto. }
  destruct o; cbn in Hu; try exact (us_mono _ _ _ Hm Hu).
  - exact (us_mono _ _ _ (Hadd k (Hk k (or_introl eq_refl))) Hu).
  - apply andb_true_iff in Hu. exact (us_mono _ _ _ Hm (proj2 Hu)).
  - exact (us_mono _ _ _ (Hadd k (Hk k (or_intror eq_refl))) Hu).
Qed.

Lemma KS_mono s t th s1 th1 o : imove s t th = (s1, th1, o) -> forall x, KS s x = true -> KS s1 x = true.
Proof.
  intros Hm x Hx. unfold KS in *. rewrite (F_known _ _ _ _ _ _ x Hm).
  destruct (cell_known s x); [reflexivity|]. cbn in Hx. rewrite Hx. apply orb_true_r.
Qed.

Lemma F_usok s t th s1 th1 o :
  imove s t th = (s1, th1, o) -> pc_ok th ->
  us_ok (KS s) (t_ops th) = true -> us_ok (KS s1) (t_ops th1) = true.
Proof.
  intros H Hp Hu. pose proof (KS_mono _ _ _ _ _ _ H) as Hmono.
  (* the script stays, or loses its head: an operation that subscribes ends with subscribe_cell *)
  apply imove_istep in H. destruct H; unfold next_cell, pc_ok in *; try destruct rest;
    cbn [t_pc t_ops pc_op pay_op] in *; try (destruct Hp as (r0 & ->)); cbn [tl];
    try reflexivity; try exact (us_mono _ _ _ Hmono Hu).
  all: apply (us_ok_tl _ _ _ _ Hu Hmono); intros k' [E|E]; inversion E; subst.
  all: unfold KS; rewrite known_sub, Nat.eqb_refl, orb_true_r; reflexivity.
Qed.

Definition UsInv (s : ish) (ths : list ithread) : Prop :=
  forall i th, nth_error ths i = Some th -> us_ok (KS s) (t_ops th) = true.

Lemma UsInv_step s ths t th s1 th1 o :
  Core s ths -> UsInv s ths -> nth_error ths t = Some th -> imove s t th = (s1, th1, o) ->
  UsInv s1 (set_th ths t th1).
Proof.
  intros HC HU Ht Hm. unfold UsInv. apply (set_th_all (fun _ x => us_ok (KS s1) (t_ops x) = true) _ _ _ _ Ht).
  - eapply F_usok; eauto. eapply c_pcok; eauto.
  - intros i x _ Hi. exact (us_mono _ _ _ (KS_mono _ _ _ _ _ _ Hm) (HU _ _ Hi)).
Qed.

(* no thread will subscribe a probe of the setup script *)
Definition NSInv (ths : list ithread) : Prop :=
  forall i th x, nth_error ths i = Some th -> In x (subs th) -> S0 x = false.

Lemma NSInv_step s ths t th s1 th1 o :
  Core s ths -> NSInv ths -> nth_error ths t = Some th -> imove s t th = (s1, th1, o) -> NSInv (set_th ths t th1).
Proof.
  intros HC HN Ht Hm i x y. pose proof (c_pcok _ _ HC _ _ Ht). pose proof (c_cham _ _ HC). revert i x. apply (set_th_all (fun _ x => In y (subs x) -> S0 y = false) _ _ _ _ Ht).
  - intros Hy. eapply HN; eauto. eapply subs_step_in; eauto.
  - intros i x _. apply HN.
Qed.

Definition ustep (U : list nat) (x : itr) : option (list nat) :=
  match x with
  | TEv k _ _ _ => if imem k U then None else Some U
  | TUn k _ _ => Some (k :: U)
  | _ => Some U
  end.

Lemma unsub_walks U tr :
  unsub_walk U tr = match walks ustep U tr with Some _ => true | None => false end.
Proof.
  revert U. induction tr as [|x tr IH]; intros U; cbn; [reflexivity|].
  destruct x as [t l|k p t j|y t j|k t j|k|t]; cbn; rewrite ?IH; try reflexivity.
  destruct (imem k U); cbn; auto.
Qed.

Definition uns (o : list itr) : list nat :=
  flat_map (fun x => match x with TUn k _ _ => [k] | _ => [] end) o.

Lemma walks_un U o :
  forallb (fun x => negb (is_ev x)) o = true -> walks ustep U o = Some (rev (uns o) ++ U).
Proof.
  revert U. induction o as [|x o IH]; intros U; cbn; [reflexivity|]. intros H.
  apply andb_true_iff in H. destruct H as [Hx Ho].
  destruct x; try discriminate; cbn; rewrite (IH _ Ho); try reflexivity.
  rewrite <- app_assoc. reflexivity.
Qed.

Lemma uns_in k o : In k (uns o) -> exists t j, In (TUn k t j) o.
Proof.
  unfold uns. rewrite in_flat_map. intros (x & Hx & Hk). destruct x; cbn in Hk; try contradiction.
  destruct Hk as [<-|[]]. eauto.
Qed.

(* nobody has subscribed probe k and nobody will *)
Definition Never (s : ish) (ths : list ithread) (k : nat) : Prop :=
  cell_known s k = false /\ forall i th, nth_error ths i = Some th -> ~ In k (subs th).

Lemma Never_step s ths t th s1 th1 o k :
  Core s ths -> Never s ths k -> nth_error ths t = Some th -> imove s t th = (s1, th1, o) ->
  Never s1 (set_th ths t th1) k.
Proof.
  intros HC [Hk Hn] Ht Hm. pose proof (c_pcok _ _ HC _ _ Ht). pose proof (c_cham _ _ HC). split.
  - apply (unknown_stays _ _ _ _ _ _ _ Hm Hk). intros Es. apply (Hn _ _ Ht).
    apply sub_now_in; assumption.
  - apply (set_th_all (fun _ x => ~ In k (subs x)) _ _ _ _ Ht); [|eauto].
    intros Hx. apply (Hn _ _ Ht). eapply subs_step_in; eauto.
Qed.

Definition QInv (U : list nat) (s : ish) (ths : list ithread) : Prop :=
  forall k, In k U -> Dead s ths k \/ Never s ths k.

Lemma QInv_step U s ths t th s1 th1 o :
  Core s ths -> UsInv s ths -> NSInv ths -> QInv U s ths ->
  ienabled s ths t = true -> nth_error ths t = Some th ->
  imove s t th = (s1, th1, o) ->
  exists U', walks ustep U o = Some U' /\ QInv U' s1 (set_th ths t th1).
Proof.
  intros HC HU HN HQ He Ht Hm.
  assert (HQ1 : QInv U s1 (set_th ths t th1)).
  { intros k Hk. destruct (HQ _ Hk); [left; eapply Dead_step|right; eapply Never_step]; eauto. }
  destruct (in_cb (t_pc th)) as [k|] eqn:Ec.
  - destruct (F_out _ _ _ _ _ _ _ Hm Ec) as (p & Ho). rewrite Ho. cbn.
    assert (imem k U = false) as HkU.
    { apply imem_false. intros Hk. destruct (HQ _ Hk) as [(_ & _ & Hn)|(Hkn & Hn)].
      - eapply Hn; eauto.
      - destruct (in_cb_cases _ _ Ec) as [Hh|(x & Hx)].
        + rewrite (in_cb_known _ _ _ (c_local _ _ HC _ _ Ht) Hh) in Hkn. discriminate.
        + eapply Hn; eauto. eapply in_cb_B; eauto. eapply c_pcok; eauto. }
    rewrite HkU. exists U. auto.
  - rewrite (walks_un U o (F_noev _ _ _ _ _ _ Hm Ec)). eexists. split; [reflexivity|].
    intros k Hk. apply in_app_or in Hk. destruct Hk as [Hk|Hk]; [|apply HQ1; auto].
    apply in_rev in Hk. apply uns_in in Hk. destruct Hk as (t0 & j & Hk).
    destruct (F_event _ _ _ _ _ _ _ Hm Hk) as (Hpc & (r & Hops) & Hkill).
    assert (KS s k = true) as HK.
    { pose proof (HU _ _ Ht) as H. rewrite Hops in H. cbn in H. apply andb_true_iff in H. tauto. }
    unfold KS in HK. destruct (cell_known s k) eqn:Hkn.
    + (* the cell is killed under its lock, which nobody inside the callback can hold *)
      left. destruct (Hkill eq_refl) as [Hd1 Hn].
      split; [rewrite (F_known _ _ _ _ _ _ k Hm), Hkn; reflexivity|]. split; [auto|].
      apply (set_th_all (fun _ x => in_cb (t_pc x) <> Some k) _ _ _ _ Ht).
      * intros Hx. destruct (F_incb _ _ _ _ _ _ _ Hm Hx) as (_ & [(_ & Ho & _)|(_ & r' & Hops')]).
        -- rewrite Hpc in Ho. discriminate.
        -- congruence.
      * intros i x _ Hi Hx. pose proof (cb_holds_cell _ _ _ _ _ HC Hi Hx Hkn) as Hh.
        rewrite (enabled_free _ _ _ _ _ _ _ He Ht Hn Hi) in Hh. discriminate.
    + right. cbn in HK. refine (Never_step _ _ _ _ _ _ _ _ HC _ Ht Hm). split; auto.
      intros i x Hi Hx. rewrite (HN _ _ _ Hi Hx) in HK. discriminate.
Qed.

Lemma quiet_irun sched s ths s' ths' tr :
  Core s ths -> UsInv s ths -> NSInv ths -> irun s ths sched = (s', ths', tr) ->
  quiet_after_unsub tr = true.
Proof.
  intros HC HU HN Hr. unfold quiet_after_unsub. rewrite unsub_walks.
  destruct (irun_walks ustep (fun U s ths => Core s ths /\ UsInv s ths /\ NSInv ths /\ QInv U s ths))
    with (3 := Hr) (a := @nil nat) as (a' & -> & _); [|split; [|split; [|split]]; auto; intros k []|reflexivity].
  intros U s0 ths0 t th s1 th1 o (HC0 & HU0 & HN0 & HQ0) He Hn Hm.
  destruct (QInv_step _ _ _ _ _ _ _ _ HC0 HU0 HN0 HQ0 He Hn Hm) as (U' & Hw & HQ1).
  exists U'. split; [exact Hw|]. split; [eapply Core_step; eauto|]. split; [eapply UsInv_step; eauto|].
  split; [eapply NSInv_step; eauto|exact HQ1].
Qed.

End Quiet.

Lemma UsInv_init setup scripts s :
  unsubs_ok setup scripts = true -> UsInv (in_setup setup) s (map start_thread scripts).
Proof.
  intros Hu i th Hi. apply nth_map_start in Hi. destruct Hi as (sc & Hsc & ->). cbn.
  unfold unsubs_ok in Hu. rewrite forallb_forall in Hu.
  eapply us_mono; [|apply Hu; eapply nth_error_In; eauto].
  intros x Hx. unfold KS. rewrite Hx. apply orb_true_r.
Qed.

Lemma NSInv_init setup scripts :
  names_ok setup scripts = true -> NSInv (in_setup setup) (map start_thread scripts).
Proof.
  intros Hn i th x Hi Hx. apply nth_map_start in Hi. destruct Hi as (sc & Hsc & ->).
  unfold subs in Hx. cbn in Hx. unfold in_setup. apply imem_false. intros Hs.
  destruct (names_split (setup :: scripts) (names_ok_nodup _ _ Hn)) as [_ H2].
  specialize (H2 0 (S i) setup sc x eq_refl Hsc Hs Hx). discriminate.
Qed.

(* C02: once unsubscribe() has returned, the probe is never called *)
Theorem il_quiet_after_unsub v0 setup scripts sched :
  names_ok setup scripts = true -> unsubs_ok setup scripts = true ->
  let '(tr, e, fin) := run_case v0 setup scripts sched in quiet_after_unsub tr = true.
Proof.
  intros Hn Hu. apply run_case_irun. intros s ths tr Er. eapply (quiet_irun (in_setup setup)); [| | |exact Er].
  - apply Core_after_setup; auto.
  - apply UsInv_init; auto.
  - apply NSInv_init; auto.
Qed.

Theorem il_all v0 setup scripts sched :
  names_ok setup scripts = true -> setup_completes v0 setup = true -> unsubs_ok setup scripts = true ->
  let '(tr, e, fin) := run_case v0 setup scripts sched in
  no_overlap tr && no_panic tr && grammar_ok tr && quiet_after_unsub tr && values_ok scripts tr &&
  common_order_ok scripts tr = true /\ e <> EDeadlock.
Proof.
  intros Hn Hc Hu.
  pose proof (il_no_deadlock v0 setup scripts sched) as H1.
  pose proof (il_no_overlap v0 setup scripts sched Hn Hc) as H2.
  pose proof (il_no_panic v0 setup scripts sched) as H3.
  pose proof (il_grammar v0 setup scripts sched Hn) as H4.
  pose proof (il_quiet_after_unsub v0 setup scripts sched Hn Hu) as H5.
  pose proof (il_values v0 setup scripts sched) as H6.
  pose proof (il_common_order v0 setup scripts sched Hn) as H7.
  destruct (run_case v0 setup scripts sched) as [[tr e] fin].
  rewrite H2, H3, H4, H5, H6, H7. split; [reflexivity|exact H1].
Qed.

(* the trace of a run_case result *)
Definition tr_of (r : list itr * iend * Z) : list itr := fst (fst r).

(* a non-trivial case that satisfies the three hypotheses (three threads, subject and behavior
   operations mixed, subscriptions and unsubscriptions while others emit, a terminal) *)
Definition ex_setup : list iop := [ISub 0; IBSub 1; IBNext 4%Z].
Definition ex_scripts : list (list iop) :=
  [[INext 1%Z; IBSub 2; IUnsub 2; INext 2%Z]; [IBNext 7%Z; IUnsub 0; IBPeek]; [ISub 3; INext 9%Z; ITerm None]].
Definition ex_sched : list nat :=
  [0;1;2;0;1;2;2;0;0;1;1;2;0;1;0;2;0;0;0;1;1;1;2;2;2;0;1;2;0;0;0;0;0;1;1;1;1;1;2;2;2;2;2;2] ++
  concat (repeat [0;1;2] 40).

Example hyps_satisfiable :
  (names_ok ex_setup ex_scripts, setup_completes 0%Z ex_setup, unsubs_ok ex_setup ex_scripts) = (true, true, true).
Proof. vm_compute. reflexivity. Qed.

Example hyps_case_runs :
  (let '(tr, e, f) := run_case 0%Z ex_setup ex_scripts ex_sched in
   (ileave_ok ex_setup ex_scripts tr e, e, Nat.ltb 30 (length tr))) = (true, EFinished, true).
Proof. vm_compute. reflexivity. Qed.

(* il_no_overlap without names_ok: probe 0 is subscribed by the setup script and again, on the
   BehaviorSubject side, by a thread while another thread is inside its callback *)
Example no_overlap_needs_names :
  (names_ok [ISub 0] [[INext 1%Z]; [IBSub 0]], setup_completes 0%Z [ISub 0],
   no_overlap (tr_of (run_case 0%Z [ISub 0] [[INext 1%Z]; [IBSub 0]] [0;0;0;0;1]))) = (false, true, false).
Proof. vm_compute. reflexivity. Qed.

(* il_no_overlap without setup_completes: `run_case` gives the setup script 1000 moves; a longer one
   is cut off inside probe 0's callback and `s_busy` keeps the probe for ever *)
Definition long_setup : list iop := ISub 0 :: repeat (INext 1%Z) 200.
Example no_overlap_needs_setup_completes :
  (names_ok long_setup [[INext 5%Z]], setup_completes 0%Z long_setup,
   no_overlap (tr_of (run_case 0%Z long_setup [[INext 5%Z]] [0;0;0;0]))) = (true, false, false).
Proof. vm_compute. reflexivity. Qed.

(* il_grammar without names_ok: probe 0 is handed the terminal and is then subscribed again *)
Example grammar_needs_names :
  (names_ok [ISub 0] [[ITerm None; IBSub 0]],
   grammar_ok (tr_of (run_case 0%Z [ISub 0] [[ITerm None; IBSub 0]] (repeat 0 30)))) = (false, false).
Proof. vm_compute. reflexivity. Qed.

(* il_quiet_after_unsub without unsubs_ok: a thread "unsubscribes" a probe that another thread has
   not subscribed yet *)
Example quiet_needs_unsubs_ok :
  (names_ok [] [[IUnsub 0]; [ISub 0; INext 1%Z]], unsubs_ok [] [[IUnsub 0]; [ISub 0; INext 1%Z]],
   quiet_after_unsub (tr_of (run_case 0%Z [] [[IUnsub 0]; [ISub 0; INext 1%Z]] [0;1;1;1;1;1;1;1;1])))
  = (true, false, false).
Proof. vm_compute. reflexivity. Qed.

(* il_quiet_after_unsub without names_ok: the probe is subscribed again after its unsubscribe() *)
Example quiet_needs_names :
  (names_ok [ISub 0] [[IUnsub 0; ISub 0; INext 1%Z]], unsubs_ok [ISub 0] [[IUnsub 0; ISub 0; INext 1%Z]],
   quiet_after_unsub (tr_of (run_case 0%Z [ISub 0] [[IUnsub 0; ISub 0; INext 1%Z]] (repeat 0 30))))
  = (false, true, false).
Proof. vm_compute. reflexivity. Qed.

(* il_common_order without names_ok: a probe subscribed twice sees every broadcast twice *)
Example common_order_needs_names :
  (names_ok [ISub 0; ISub 0] [[INext 1%Z]],
   common_order_ok [[INext 1%Z]] (tr_of (run_case 0%Z [ISub 0; ISub 0] [[INext 1%Z]] (repeat 0 30))))
  = (false, false).
Proof. vm_compute. reflexivity. Qed.

Print Assumptions il_no_deadlock.
Print Assumptions il_no_overlap.
Print Assumptions il_no_panic.
Print Assumptions il_grammar.
Print Assumptions il_quiet_after_unsub.
Print Assumptions il_values.
Print Assumptions il_common_order.
Print Assumptions il_all.
Print Assumptions no_stuck.
