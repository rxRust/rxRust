(* C09 exactness for throttle: the first item of a window goes out on the leading edge, the last
   one on the trailing edge, under an executor that polls a window task when it is spawned (the
   poll that arms its timer) and again when the timer is due; a completion flushes the pending
   trailing item.  One window is followed from `WinClosed` through `WinOpen`; windows compose
   (`throttle_windows`); the statements per edge are scenarios of one or two windows. *)
From RxModel Require Import Timed.
From RxSpec Require Import TimedSpec.
From RxProofs Require Import TimedLaws CollectLaws RateLaws.
Open Scope N_scope.

(* the items of `vs` arrive (inside an open window), as labels *)
Definition feed (vs : list val) : list tlab := map (fun x => LSrc (Next x)) vs.

(* ELeading never stores a candidate; the other edges keep the latest item *)
Definition stash (e : edge) (tr : option val) (x : val) : option val :=
  match e with ELeading => tr | _ => Some x end.

Fixpoint stash_all (e : edge) (tr : option val) (vs : list val) : option val :=
  match vs with
  | [] => tr
  | x :: r => stash_all e (stash e tr x) r
  end.

(* in closed form (`v` is what `last` answers on the empty list: it is not reached then) *)
Lemma stash_all_eq e tr vs v :
  stash_all e tr vs = match e, vs with ELeading, _ | _, [] => tr | _, _ :: _ => Some (last vs v) end.
Proof.
  revert tr. induction vs as [|x vs IH]; intros tr; [destruct e; reflexivity|].
  cbn [stash_all]. rewrite IH. destruct e, vs; reflexivity.
Qed.

(* what the first item of a window does, by edge: delivered at once or stashed *)
Definition lead_out (e : edge) (t : N) (v : val) : list tout :=
  match e with ETailing => [] | _ => [TOut t (Next v)] end.
Definition lead_trail (e : edge) (v : val) : option val :=
  match e with ETailing => Some v | _ => None end.

Definition trail_out (t : N) (tr : option val) : list tout :=
  match tr with Some v => [TOut t (Next v)] | None => [] end.

(* at time t no window is open and nothing is pending: the next item opens window k *)
Definition WinClosed (s : tsys) (k : nat) (t : N) : Prop :=
  Attached s k /\ no_window s = true /\ trailing s = None /\ now s = t.

(* at time t window k is open, its timer armed at `due`, `tr` pending *)
Definition WinOpen (d : N) (s : tsys) (k : nat) (due : N) (tr : option val) (t : N) : Prop :=
  Win s k (tk_wait d k due) /\ handler s = Some k /\ trailing s = tr /\ now s = t.

Section Window.
  Variables (d : N) (e : edge).
  Hypothesis Hd : 0 < d.
  Let o := TThrottle d e.

  Lemma thr_first s k t v : WinClosed s k t ->
    routs o s [LSrc (Next v); LRun k] = lead_out e t v /\
    WinOpen d (tfinal o s [LSrc (Next v); LRun k]) k (t + d) (lead_trail e v) t.
  Proof.
    intros (I & Hc & Htr & <-). pose proof I as (Ht & Hj & Ha & Hon & Hsd).
    set (s0 := upd_trailing s (lead_trail e v)).
    assert (E1 : tstep o s (LSrc (Next v)) =
                 (upd_handler (fst (schedule s0 BOnce JTrailing (Some d))) (Some k), lead_out e (now s) v)).
    { cbn [tstep]. rewrite Hsd, Hon. cbn [is_term o on_src]. fold (no_window s). rewrite Hc, <- Ht.
      assert (E0 : upd_trailing s None = s) by (destruct s; cbn in Htr; subst; reflexivity).
      unfold s0. destruct e; unfold slot_next; cbn [lead_trail]; rewrite ?E0, ?Ha; reflexivity. }
    assert (W1 : Win (upd_handler (fst (schedule s0 BOnce JTrailing (Some d))) (Some k)) k (tk_new d k))
      by (apply win_sched; exact I).
    edestruct step_cons as [-> ->]; [exact E1|].
    edestruct step_cons as [-> ->]; [exact (win_arm o d _ k Hd W1)|].
    split; [destruct e; reflexivity|]. split; [apply (win_set _ _ _ _ W1)|]. repeat split.
  Qed.

  Lemma thr_feed vs : forall s k due tr t, WinOpen d s k due tr t ->
    routs o s (feed vs) = [] /\ WinOpen d (tfinal o s (feed vs)) k due (stash_all e tr vs) t.
  Proof.
    induction vs as [|x vs IH]; intros s k due tr t HO; [split; [reflexivity|exact HO]|].
    destruct HO as (W & Hh & Htr & Hn). pose proof W as (Ht & _ & _ & _ & _ & Hon & Hsd).
    assert (E : tstep o s (LSrc (Next x)) = (match e with ELeading => s | _ => upd_trailing s (Some x) end, [])).
    { cbn [tstep]. rewrite Hsd, Hon. cbn [is_term o on_src]. unfold task_finished. rewrite Hh, Ht. destruct e; reflexivity. }
    cbn [feed map]. edestruct step_cons as [-> ->]; [exact E|]. apply IH.
    subst tr. destruct e; repeat split; auto; apply W.
  Qed.

  Lemma thr_close s k tr t : WinOpen d s k (t + d) tr t ->
    routs o s [LAdv d; LRun k] = trail_out (t + d) tr /\ WinClosed (tfinal o s [LAdv d; LRun k]) (S k) (t + d).
  Proof.
    intros (W & Hh & Htr & <-). pose proof W as (_ & _ & _ & _ & Ha & _).
    assert (E2 := win_fire o d (upd_now s (now s + d)) k W).
    edestruct step_cons as [-> ->]; [reflexivity|].
    edestruct step_cons as [-> ->]; [exact E2|].
    split; [unfold fire_out; cbn [trailing alive now upd_now]; rewrite Htr, Ha; destruct tr; reflexivity|].
    pose proof (win_set _ _ _ (tk_done d k) W) as (Ht' & _ & I'). split; [exact I'|]. repeat split.
    unfold no_window, task_finished. cbn [tfinal handler tasks upd_tasks upd_trailing upd_now] in *. rewrite Hh, Ht'. reflexivity.
  Qed.

  Lemma thr_done s k due tr t : WinOpen d s k due tr t -> routs o s [LSrc Done] = trail_out t tr ++ [TOut t Done].
  Proof.
    intros (W & Hh & Htr & <-). pose proof W as (_ & _ & _ & _ & Ha & Hon & Hsd).
    cbn [routs tstep]. rewrite Hsd, Hon. cbn [is_term]. destruct (rate_done o (upd_src s false true) I) as [ts ->].
    unfold done_out, fire_out. cbn [snd trailing alive now upd_src]. rewrite Htr, Ha, touts_app. destruct tr; reflexivity.
  Qed.

  Definition window (k : nat) (v : val) (vs : list val) : list tlab :=
    [LSrc (Next v); LRun k] ++ feed vs ++ [LAdv d; LRun k].

  (* the item pending when the window closes *)
  Definition pending (v : val) (vs : list val) : option val := stash_all e (lead_trail e v) vs.

  Lemma thr_window s k t v vs : WinClosed s k t ->
    routs o s (window k v vs) = lead_out e t v ++ trail_out (t + d) (pending v vs) /\
    WinClosed (tfinal o s (window k v vs)) (S k) (t + d).
  Proof.
    intros HC. unfold window. rewrite !routs_app, !tfinal_app.
    destruct (thr_first s k t v HC) as [-> O1]. destruct (thr_feed vs _ _ _ _ _ O1) as [-> O2].
    destruct (thr_close _ _ _ _ O2) as [-> C3]. split; [reflexivity|exact C3].
  Qed.
End Window.

Lemma pending_eq e v vs :
  pending e v vs =
  match e, vs with ELeading, _ | EAll, [] => None | _, _ => Some (last vs v) end.
Proof. unfold pending. rewrite (stash_all_eq _ _ vs v). destruct e, vs; reflexivity. Qed.

Lemma win_closed_init d e : WinClosed (tinit (TThrottle d e)) 0 0.
Proof. repeat split. Qed.

(* any number of windows, each polled when it opens and when its timer is due *)
Fixpoint window_seq (d : N) (k : nat) (ws : list (val * list val)) : list tlab :=
  match ws with
  | [] => []
  | (v, vs) :: r => window d k v vs ++ window_seq d (S k) r
  end.

Fixpoint window_seq_outs (d : N) (e : edge) (t : N) (ws : list (val * list val)) : list tout :=
  match ws with
  | [] => []
  | (v, vs) :: r => (lead_out e t v ++ trail_out (t + d) (pending e v vs)) ++ window_seq_outs d e (t + d) r
  end.

Lemma thr_windows d e : 0 < d -> forall ws s k t, WinClosed s k t ->
  routs (TThrottle d e) s (window_seq d k ws) = window_seq_outs d e t ws.
Proof.
  intros Hd ws. induction ws as [|[v vs] ws IH]; intros s k t HC; [reflexivity|].
  cbn [window_seq window_seq_outs]. rewrite routs_app. destruct (thr_window d e Hd s k t v vs HC) as [-> C].
  rewrite (IH _ _ _ C). reflexivity.
Qed.

Theorem throttle_windows d e ws : 0 < d ->
  touts (run_timed (TThrottle d e) (window_seq d 0 ws)) = window_seq_outs d e 0 ws.
Proof. intros Hd. unfold run_timed. rewrite touts_run. apply (thr_windows d e Hd ws _ _ _ (win_closed_init d e)). Qed.

Lemma throttle_window_gen d e v vs w : 0 < d ->
  touts (run_timed (TThrottle d e)
           (LSrc (Next v) :: LRun 0 :: feed vs ++ [LAdv d; LRun 0; LSrc (Next w); LRun 1])) =
  lead_out e 0 v ++ trail_out d (pending e v vs) ++ lead_out e d w.
Proof.
  intros Hd. unfold run_timed. rewrite touts_run.
  replace (LSrc (Next v) :: LRun 0 :: feed vs ++ [LAdv d; LRun 0; LSrc (Next w); LRun 1])
    with (window d 0 v vs ++ [LSrc (Next w); LRun 1]) by (unfold window; cbn [app]; rewrite <- app_assoc; reflexivity).
  rewrite routs_app. destruct (thr_window d e Hd _ _ _ v vs (win_closed_init d e)) as [-> C].
  destruct (thr_first d e Hd _ _ _ w C) as [-> _]. symmetry. apply app_assoc.
Qed.

Lemma throttle_window_gen2 d e v vs w : 0 < d ->
  touts (run_timed (TThrottle d e)
           (LSrc (Next v) :: LRun 0 :: feed vs ++ [LAdv d; LRun 0; LSrc (Next w); LRun 1] ++ [LAdv d; LRun 1])) =
  lead_out e 0 v ++ trail_out d (pending e v vs) ++ lead_out e d w ++ trail_out (d + d) (lead_trail e w).
Proof.
  intros Hd. pose proof (throttle_windows d e [(v, vs); (w, [])] Hd) as H.
  cbn [window_seq window app feed map window_seq_outs N.add] in H. rewrite app_nil_r, <- !app_assoc in H. exact H.
Qed.

Lemma throttle_done_gen d e v vs : 0 < d ->
  touts (run_timed (TThrottle d e) (LSrc (Next v) :: LRun 0 :: feed vs ++ [LSrc Done])) =
  lead_out e 0 v ++ trail_out 0 (pending e v vs) ++ [TOut 0 Done].
Proof.
  intros Hd. unfold run_timed. rewrite touts_run.
  change (routs (TThrottle d e) (tinit (TThrottle d e)) ([LSrc (Next v); LRun 0] ++ feed vs ++ [LSrc Done]) =
          lead_out e 0 v ++ trail_out 0 (pending e v vs) ++ [TOut 0 Done]).
  rewrite !routs_app. destruct (thr_first d e Hd _ _ _ v (win_closed_init d e)) as [-> O1].
  destruct (thr_feed d e vs _ _ _ _ _ O1) as [-> O2]. rewrite (thr_done d e _ _ _ _ _ O2). reflexivity.
Qed.

(* 1. leading edge: the first item of the window at once, the items inside the window dropped,
      the first item after the window opens the next one *)
Theorem throttle_leading_exact : forall d v vs w, 0 < d ->
  touts (run_timed (TThrottle d ELeading)
           (LSrc (Next v) :: LRun 0 :: feed vs ++ [LAdv d; LRun 0; LSrc (Next w); LRun 1])) =
  [TOut 0 (Next v); TOut d (Next w)].
Proof.
  intros d v vs w Hd. rewrite (throttle_window_gen d ELeading v vs w Hd), pending_eq. reflexivity.
Qed.

(* 2. trailing edge: when the window closes, the last item that arrived in it; w is pending *)
Theorem throttle_trailing_exact : forall d v vs w, 0 < d ->
  touts (run_timed (TThrottle d ETailing)
           (LSrc (Next v) :: LRun 0 :: feed vs ++ [LAdv d; LRun 0; LSrc (Next w); LRun 1])) =
  [TOut d (Next (last vs v))].
Proof.
  intros d v vs w Hd. rewrite (throttle_window_gen d ETailing v vs w Hd), pending_eq. destruct vs; reflexivity.
Qed.

(*    ... and w is delivered when its own window closes *)
Theorem throttle_trailing_exact_next : forall d v vs w, 0 < d ->
  touts (run_timed (TThrottle d ETailing)
           (LSrc (Next v) :: LRun 0 :: feed vs ++ [LAdv d; LRun 0; LSrc (Next w); LRun 1] ++ [LAdv d; LRun 1])) =
  [TOut d (Next (last vs v))] ++ [TOut (d + d) (Next w)].
Proof.
  intros d v vs w Hd. rewrite (throttle_window_gen2 d ETailing v vs w Hd), pending_eq. destruct vs; reflexivity.
Qed.

(* 3. both edges: v at once; at the close of the window the last item that arrived inside it
      (nothing if there was none: the leading item is not repeated); w at once *)
Theorem throttle_all_exact : forall d v vs w, 0 < d ->
  touts (run_timed (TThrottle d EAll)
           (LSrc (Next v) :: LRun 0 :: feed vs ++ [LAdv d; LRun 0; LSrc (Next w); LRun 1])) =
  TOut 0 (Next v) :: (match vs with [] => [] | _ :: _ => [TOut d (Next (last vs v))] end) ++ [TOut d (Next w)].
Proof.
  intros d v vs w Hd. rewrite (throttle_window_gen d EAll v vs w Hd), pending_eq. destruct vs; reflexivity.
Qed.

(*    ... and w, delivered on the leading edge, is not delivered again when its window closes *)
Theorem throttle_all_exact_next : forall d v vs w, 0 < d ->
  touts (run_timed (TThrottle d EAll)
           (LSrc (Next v) :: LRun 0 :: feed vs ++ [LAdv d; LRun 0; LSrc (Next w); LRun 1] ++ [LAdv d; LRun 1])) =
  TOut 0 (Next v) :: (match vs with [] => [] | _ :: _ => [TOut d (Next (last vs v))] end) ++ [TOut d (Next w)].
Proof.
  intros d v vs w Hd. rewrite (throttle_window_gen2 d EAll v vs w Hd), pending_eq. destruct vs; reflexivity.
Qed.

(*    the leading-edge window closes silently as well *)
Theorem throttle_leading_exact_next : forall d v vs w, 0 < d ->
  touts (run_timed (TThrottle d ELeading)
           (LSrc (Next v) :: LRun 0 :: feed vs ++ [LAdv d; LRun 0; LSrc (Next w); LRun 1] ++ [LAdv d; LRun 1])) =
  [TOut 0 (Next v); TOut d (Next w)].
Proof.
  intros d v vs w Hd. rewrite (throttle_window_gen2 d ELeading v vs w Hd), pending_eq. reflexivity.
Qed.

(* 4. a completion inside the window flushes the pending trailing item, then completes *)
Theorem throttle_trailing_done_exact : forall d v vs, 0 < d ->
  touts (run_timed (TThrottle d ETailing) (LSrc (Next v) :: LRun 0 :: feed vs ++ [LSrc Done])) =
  [TOut 0 (Next (last vs v)); TOut 0 Done].
Proof.
  intros d v vs Hd. rewrite (throttle_done_gen d ETailing v vs Hd), pending_eq. destruct vs; reflexivity.
Qed.

Theorem throttle_all_done_exact : forall d v vs, 0 < d ->
  touts (run_timed (TThrottle d EAll) (LSrc (Next v) :: LRun 0 :: feed vs ++ [LSrc Done])) =
  TOut 0 (Next v) :: (match vs with [] => [] | _ :: _ => [TOut 0 (Next (last vs v))] end) ++ [TOut 0 Done].
Proof.
  intros d v vs Hd. rewrite (throttle_done_gen d EAll v vs Hd), pending_eq. destruct vs; reflexivity.
Qed.

(*    the leading edge has nothing to flush: the items inside the window are lost *)
Theorem throttle_leading_done_exact : forall d v vs, 0 < d ->
  touts (run_timed (TThrottle d ELeading) (LSrc (Next v) :: LRun 0 :: feed vs ++ [LSrc Done])) =
  [TOut 0 (Next v); TOut 0 Done].
Proof.
  intros d v vs Hd. rewrite (throttle_done_gen d ELeading v vs Hd), pending_eq. reflexivity.
Qed.

(* both flushing edges in one statement: the output ends with the pending item (if any) followed
   by the completion *)
Theorem throttle_done_flushes : forall d e v vs, 0 < d -> e <> ELeading ->
  touts (run_timed (TThrottle d e) (LSrc (Next v) :: LRun 0 :: feed vs ++ [LSrc Done])) =
  match e with ETailing => [] | _ => [TOut 0 (Next v)] end ++
  match e, vs with EAll, [] => [] | _, _ => [TOut 0 (Next (last vs v))] end ++ [TOut 0 Done].
Proof.
  intros d e v vs Hd He. destruct e; [congruence| |].
  - rewrite (throttle_trailing_done_exact d v vs Hd). reflexivity.
  - rewrite (throttle_all_done_exact d v vs Hd). destruct vs; reflexivity.
Qed.

(* the window timer is armed by the task's first poll: without the poll at spawn time the poll at
   time d only arms it (due at d + d), and the trailing item is not delivered at d *)
Example throttle_trailing_needs_the_arming_poll :
  touts (run_timed (TThrottle 3 ETailing)
           (LSrc (Next (VZ 1)) :: feed [VZ 2] ++ [LAdv 3; LRun 0; LSrc (Next (VZ 9)); LRun 1])) = [].
Proof. vm_compute. reflexivity. Qed.

(* d = 0: the window closes at the poll that follows the first item, so the next item is a leading
   item again (and w falls inside the window that item opened) *)
Example throttle_leading_zero_window :
  touts (run_timed (TThrottle 0 ELeading)
           (LSrc (Next (VZ 1)) :: LRun 0 :: feed [VZ 2] ++ [LAdv 0; LRun 0; LSrc (Next (VZ 9)); LRun 1])) =
  [TOut 0 (Next (VZ 1)); TOut 0 (Next (VZ 2))].
Proof. vm_compute. reflexivity. Qed.

Print Assumptions throttle_leading_exact.
Print Assumptions throttle_trailing_exact.
Print Assumptions throttle_trailing_exact_next.
Print Assumptions throttle_all_exact.
Print Assumptions throttle_all_exact_next.
Print Assumptions throttle_leading_exact_next.
Print Assumptions throttle_trailing_done_exact.
Print Assumptions throttle_all_done_exact.
Print Assumptions throttle_leading_done_exact.
Print Assumptions throttle_done_flushes.
