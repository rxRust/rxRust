(* The compositions in observable.rs compute their documented results. *)
From RxSpec Require Import DerivedSpec.
From RxProofs Require Import Ops1Laws ChainLaws.

Lemma items_of_mk items t : items_of (mk items t) = items.
Proof. induction items as [|x xs IH]; [destruct t; reflexivity|]. rewrite mk_cons. cbn. f_equal. exact IH. Qed.

Lemma term_of_mk items t : term_of (mk items t) = t.
Proof. induction items as [|x xs IH]; [destruct t; reflexivity|]. rewrite mk_cons. exact IH. Qed.

Lemma stage_mk o items t : stage_spec o (mk items t) = spec1 o items t.
Proof. unfold stage_spec. rewrite items_of_mk, term_of_mk. reflexivity. Qed.

Lemma stage_on_done o t l :
  stage_spec o (on_done t l) = spec1 o (match t with TDone => l | _ => [] end) t.
Proof. rewrite on_done_mk. apply stage_mk. Qed.

Lemma last_opt_cons2 x y l : last_opt (x :: y :: l) = last_opt (y :: l).
Proof. unfold last_opt. cbn [rev]. destruct (rev l); reflexivity. Qed.

Lemma last_opt_scan f a items :
  last_opt (scan_l f a items) = match items with [] => None | _ => Some (fold_left f items a) end.
Proof.
  revert a. induction items as [|x xs IH]; intros a; [reflexivity|].
  cbn [scan_l fold_left]. specialize (IH (f a x)).
  destruct xs as [|y ys]; [reflexivity|].
  cbn [scan_l] in *. rewrite last_opt_cons2. exact IH.
Qed.

(* one stage of a chain applied to the output of the previous one *)
Ltac stage := unfold chain_spec; cbn [fold_left]; unfold out; first [rewrite stage_mk | rewrite stage_on_done]; cbn [spec1].

Lemma chain_spec_app a b s : chain_spec (a ++ b) s = chain_spec b (chain_spec a s).
Proof. unfold chain_spec. apply fold_left_app. Qed.

(* the aggregates of observable.rs are scan, keep the last, and then one of two things: fall back to
   the initial value (reduce, count, sum) or post-process what there is (max, min, average) *)
Lemma scan_last_law f init items t :
  stage_spec OLast (stage_spec (OScan f init) (mk items t)) =
  on_done t (match items with [] => [] | _ => [fold_left f items init] end).
Proof. stage. stage. rewrite last_opt_scan. destruct items; reflexivity. Qed.

Lemma reduce_law f init items t :
  chain_spec [OScan f init; OLast; ODefaultIfEmpty init] (mk items t) = on_done t [fold_left f items init].
Proof.
  unfold chain_spec. cbn [fold_left]. rewrite scan_last_law. stage.
  destruct items, t; reflexivity.
Qed.

Lemma scan_last_map_law f init g items t :
  chain_spec [OScan f init; OLast; OMap g] (mk items t) =
  on_done t (match items with [] => [] | _ => [g (fold_left f items init)] end).
Proof.
  unfold chain_spec. cbn [fold_left]. rewrite scan_last_law. stage.
  destruct items, t; reflexivity.
Qed.

(* max_fn and min_fn carry the running optimum under `Some` *)
Lemma fold_under_some (g h : val -> val -> val) r x :
  (forall m v, g (VOpt (Some m)) v = VOpt (Some (h m v))) ->
  fold_left g r (VOpt (Some x)) = VOpt (Some (fold_left h r x)).
Proof.
  intros H. revert x. induction r as [|y r IH]; intros x; [reflexivity|].
  cbn [fold_left]. rewrite H. apply IH.
Qed.

Lemma count_fold items (z : Z) :
  fold_left count_fn items (VZ z) = VZ (z + Z.of_nat (length items)).
Proof.
  revert z. induction items as [|x xs IH]; intros z.
  - cbn. f_equal. lia.
  - cbn [fold_left count_fn length]. rewrite IH. f_equal. lia.
Qed.

Lemma take_one items t :
  (if Nat.leb 1 (length items) then out (firstn 1 items) TDone else out items t) =
  match items with x :: _ => out [x] TDone | [] => out [] t end.
Proof. destruct items; reflexivity. Qed.

Lemma nth_error_skipn (items : list val) n :
  nth_error items n = match skipn n items with x :: _ => Some x | [] => None end.
Proof.
  revert n. induction items as [|x xs IH]; intros [|n]; try reflexivity. apply IH.
Qed.

(* `all p`: the first item that fails p, if any, comes out of map/filter as `VB false` *)
Lemma all_first_failure (p : val -> bool) items :
  match filter not_b (map (fun v => VB (p v)) items) with
  | [] => forallb p items = true
  | x :: _ => x = VB false /\ forallb p items = false
  end.
Proof.
  induction items as [|x xs IH]; [reflexivity|]. cbn.
  destruct (p x); cbn; [exact IH|split; reflexivity].
Qed.

Theorem derived_meets_spec (u : uop) (items : list val) (t : term) :
  chain_spec (expand u) (mk items t) = spec_u u items t.
Proof.
  destruct u; cbn [expand spec_u].
  - stage. reflexivity.
  - stage. apply take_one.
  - stage. rewrite take_one. destruct items; stage; [destruct t|]; reflexivity.
  - stage. stage.
    destruct (last_opt items); destruct t; reflexivity.
  - stage. stage. rewrite take_one, nth_error_skipn.
    destruct (skipn n items); reflexivity.
  - stage. induction items as [|x xs IH]; [reflexivity|exact IH].
  - stage. stage. stage. rewrite take_one. pose proof (all_first_failure p items) as H.
    destruct (filter not_b _); [rewrite H|destruct H as [-> ->]]; stage; [destruct t|]; reflexivity.
  - apply reduce_law.
  - rewrite reduce_law. rewrite (count_fold items 0). reflexivity.
  - apply reduce_law.
  - rewrite scan_last_map_law. destruct items as [|x xs]; [reflexivity|].
    cbn [fold_left max_fn]. rewrite (fold_under_some _ (fun a b => vmax a b)); [reflexivity|].
    intros m v. unfold vmax. cbn. destruct (val_ltb v m); reflexivity.
  - rewrite scan_last_map_law. destruct items as [|x xs]; [reflexivity|].
    cbn [fold_left min_fn]. rewrite (fold_under_some _ (fun a b => vmin a b)); [reflexivity|].
    intros m v. unfold vmin. cbn. destruct (val_ltb m v); reflexivity.
  - apply scan_last_map_law.
Qed.

Lemma wf_chain_spec os s : wf s = true -> wf (chain_spec os s) = true.
Proof. intros H. rewrite <- stages_eq_spec by exact H. apply wf_stages. exact H. Qed.

Theorem uchain_meets_spec (us : list uop) (s : list ev) :
  wf s = true -> chain_spec (expand_all us) s = uchain_spec us s.
Proof.
  revert s. induction us as [|u rest IH]; intros s H; [reflexivity|].
  unfold expand_all in *. cbn [flat_map]. rewrite chain_spec_app.
  unfold uchain_spec. cbn [fold_left].
  assert (E : chain_spec (expand u) s = ustage_spec u s).
  { unfold ustage_spec. rewrite <- derived_meets_spec, mk_items_term by exact H. reflexivity. }
  rewrite E. apply IH. rewrite <- E. apply wf_chain_spec, H.
Qed.

Theorem src_meets_spec (k : src) : src_script k = src_spec k.
Proof. destruct k as [v|[v|]|[v|e]|v|v|l|v n| | |e|calls]; reflexivity. Qed.

Lemma wf_src k : wf (src_script k) = true.
Proof.
  destruct k as [v|[v|]|[v|e]|v|v|l|v n| | |e|calls]; try reflexivity.
  - apply (wf_mk l TDone).
  - apply (wf_mk (repeat v n) TDone).
  - apply wf_slot.
Qed.

(* Every source, every chain of user-level operators, cold. *)
Theorem pipeline_meets_spec (k : src) (us : list uop) :
  run_src k us = uchain_spec us (src_spec k).
Proof.
  unfold run_src. replace (src_spec k) with (src_script k) by apply src_meets_spec.
  destruct (chain_meets_spec (expand_all us) (src_script k) (wf_src k)) as [Hc _].
  rewrite Hc. apply uchain_meets_spec, wf_src.
Qed.

(* Every chain of user-level operators behind a hot input, whatever is called on it. *)
Theorem hot_pipeline_meets_spec (us : list uop) (calls : list ev) :
  run_hot (expand_all us) (slot calls) = uchain_spec us (slot calls).
Proof.
  destruct (chain_meets_spec (expand_all us) (slot calls) (wf_slot calls)) as [_ ->].
  apply uchain_meets_spec, wf_slot.
Qed.
