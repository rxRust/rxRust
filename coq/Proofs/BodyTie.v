(* The method bodies of the crate's single-input observers, as translated from /repo/src on this run
   (Gen/Bodies.v, translator T5) and given meaning by Model/RustSem.v, do exactly what the hand-written
   machines of Model/Ops1.v do: for every state, every item and every error value. *)
From RxModel Require Import BodyAbs.
From RxGen Require Import Bodies.
From Coq Require Import Ascii.
Open Scope string_scope.
Open Scope list_scope.

(* ---- finding a method
   find_impl compares characters as unary numbers (neqb on nat_of_ascii) and may pass over the whole program several times,
   taking every key apart on the way: that is slow to evaluate.  The same search with Ascii.eqb: *)
Fixpoint prefixb (pre k : string) : bool :=
  match pre, k with
  | EmptyString, _ => true
  | String a pre', String b k' => Ascii.eqb a b && prefixb pre' k'
  | _, _ => false
  end.

Fixpoint colon_tail (k : string) : string :=
  match k with
  | EmptyString => EmptyString
  | String c r => if Ascii.eqb c ":" then r else colon_tail r
  end.

Fixpoint find_by (test : string -> bool) (p : prog) (m : string) : option (list string * list rs) :=
  match p with
  | [] => None
  | (k, n, b) :: p' => if test k && String.eqb n m then Some b else find_by test p' m
  end.

Definition find_quick (p : prog) (file name m : string) : option (list string * list rs) :=
  if String.eqb name "Option" then find_method p "observer.rs:$rc<Option>" m
  else
  match find_method p (file ++ ":" ++ name) m with
  | Some b => Some b
  | None =>
      match find_method p (file ++ ":$rc<" ++ name ++ ">") m with
      | Some b => Some b
      | None =>
          match find_by (prefixb (file ++ ":$")) p m with
          | Some b => Some b
          | None =>
              match find_by (fun k => String.eqb (colon_tail k) name) p m with
              | Some b => Some b
              | None => find_method p "observable.rs:ObservableExt" m
              end
          end
      end
  end.

Lemma nleb_leb a : forall b, nleb a b = Nat.leb a b.
Proof. induction a as [|a IH]; destruct b; cbn; auto. Qed.

Lemma neqb_ascii a b : neqb (Ascii.nat_of_ascii a) (Ascii.nat_of_ascii b) = Ascii.eqb a b.
Proof.
  unfold neqb. rewrite !nleb_leb. destruct (Ascii.eqb_spec a b) as [->|N].
  - rewrite !Nat.leb_refl. reflexivity.
  - apply Bool.andb_false_iff. rewrite !Nat.leb_gt.
    assert (Ascii.nat_of_ascii a <> Ascii.nat_of_ascii b).
    { intros E. apply N. rewrite <- (Ascii.ascii_nat_embedding a), E. apply Ascii.ascii_nat_embedding. }
    lia.
Qed.

Lemma has_prefix_quick pre : forall k, has_prefix pre k = prefixb pre k.
Proof. induction pre as [|a pre IH]; destruct k; cbn; auto. rewrite neqb_ascii, IH. reflexivity. Qed.

Lemma after_colon_quick k : after_colon k = colon_tail k.
Proof.
  induction k as [|c r IH]; cbn [after_colon colon_tail]; [reflexivity|].
  change 58%nat with (Ascii.nat_of_ascii ":"). rewrite neqb_ascii, IH. reflexivity.
Qed.

Lemma find_impl_quick p file name m : find_impl p file name m = find_quick p file name m.
Proof.
  unfold find_impl, find_quick.
  replace (find_macro p (file ++ ":$") m) with (find_by (prefixb (file ++ ":$")) p m).
  replace (find_any p name m) with (find_by (fun k => String.eqb (colon_tail k) name) p m); [reflexivity|].
  all: induction p as [|[[k n] b] p IH]; cbn; rewrite ?has_prefix_quick, ?after_colon_quick, ?IH; reflexivity.
Qed.

Definition run_method (P : prog) (file : string) (fuel : nat) (impl : option (list string * list rs)) (self : rv) (args : list rv)
  : option (rv * list ev * rv) :=
  match impl with
  | Some (ps, body) =>
      match zip_params ps args with
      | Some locals =>
          match eval_block P file fuel ({| fself := self; flocals := locals |}, []) body with
          | Some ((fr, out), res) => Some (fself fr, out, res)
          | None => None end
      | None => None end
  | None => None
  end.

Lemma call_method_run P file fuel ty m self args :
  call_method P file fuel ty m self args = run_method P file fuel (find_impl P file ty m) self args.
Proof. reflexivity. Qed.

(* Even so, finding a method among all the translated bodies costs more than running it: a proof that takes a state apart
   into many shapes and calls the same method on each finds it once, beforehand (the calls inside the body still search). *)
Ltac find_once :=
  rewrite call_method_run, find_impl_quick;
  match goal with |- context [find_quick ?P ?f ?t ?m] =>
    let r := eval vm_compute in (find_quick P f t m) in
    replace (find_quick P f t m) with r by (vm_compute; reflexivity)
  end.

(* symbolic evaluation: everything is computed except arithmetic and comparisons on symbolic data *)
Ltac ev := lazy -[u_ltb u_leb u_eqb u_add u_sub u_len item_eqb Nat.ltb Nat.eqb Nat.leb val_eqb mem trim emit_buf
                  app map length existsb hd_error tl].

(* the same, computing the list functions as well (for states whose list has been taken apart) *)
Ltac ev_lists := lazy -[u_ltb u_leb u_eqb u_add u_sub u_len item_eqb Nat.ltb Nat.eqb Nat.leb val_eqb mem trim emit_buf].

(* the evaluator's own names for arithmetic on usize (u_add ...) become the library's, and `x + 1` becomes `S x` as in the machines *)
Ltac fold_arith :=
  repeat match goal with
         | |- context [u_add ?x 1] => change (u_add x 1) with (x + 1)%nat; rewrite (Nat.add_1_r x)
         end;
  change u_ltb with Nat.ltb in *; change u_leb with Nat.leb in *; change u_eqb with Nat.eqb in *;
  change u_add with Nat.add in *; change u_sub with Nat.sub in *; change item_eqb with val_eqb in *.

(* case analysis on an innermost condition (one that contains no other `if` or `match`) *)
Ltac split_if :=
  match goal with
  | |- context [if ?c then _ else _] =>
      lazymatch c with
      | context [if _ then _ else _] => fail
      | context [match _ with _ => _ end] => fail
      | _ => idtac
      end;
      let E := fresh "E" in destruct c eqn:E
  end.

(* a case in which nothing symbolic is computed with closes by plain evaluation; otherwise evaluate symbolically, split on the
   comparisons that are left and evaluate again *)
Ltac tie :=
  first [ vm_compute; reflexivity
        | ev; fold_arith; repeat (split_if; ev; fold_arith); cbn [app]; reflexivity ].

Ltac start_next :=
  let st := fresh "st" in let v := fresh "v" in let self := fresh "self" in let H := fresh "H" in
  intros st v self H _; destruct st; try discriminate H;
  repeat match goal with b : bool |- _ => destruct b end;
  injection H as <-.

(* the latest item(s) a state remembers *)
Ltac split_options := repeat match goal with x : option val |- _ => destruct x end.

Lemma next_buffer_count n : next_agrees bodies (OBufferCount n). Proof. start_next; tie. Qed.

Lemma next_skip_last n : next_agrees bodies (OSkipLast n).
Proof.
  start_next. destruct count_down; [destruct q|].
  - ev_lists; fold_arith; reflexivity.
  - ev_lists; fold_arith; reflexivity.
  - (* the count-down stays symbolic: `S count_down - 1` is left for lia *)
    lazy -[app Nat.sub]. replace (S count_down - 1)%nat with count_down by lia. reflexivity.
Qed.

Lemma trim_once n (l : list val) : (length (tl l) <= n)%nat -> trim n l = if (n <? length l)%nat then tl l else l.
Proof.
  intros H. destruct l as [|x l]; [cbn; destruct n; reflexivity|].
  cbn [tl] in *. unfold trim; fold trim.
  destruct (Nat.leb_spec (length (x :: l)) n) as [L|L]; destruct (Nat.ltb_spec n (length (x :: l))) as [M|M]; try lia; try reflexivity.
  destruct l as [|y l]; [destruct n; reflexivity|]. unfold trim; fold trim.
  destruct (Nat.leb_spec (length (y :: l)) n); [reflexivity | lia].
Qed.
Lemma next_take_last n : next_agrees bodies (OTakeLast n).
Proof.
  intros st v self H I. destruct st; try discriminate H. injection H as <-. cbn [inv1] in I.
  assert (L : (length (tl (q ++ [v])) <= n)%nat).
  { destruct q; cbn [app tl length] in *; [lia | rewrite app_length; cbn [length]; lia]. }
  assert (E2 : (n <? length (tl (q ++ [v])))%nat = false) by (apply Nat.ltb_ge; exact L).
  (* the loop comes out unrolled as far as the fuel goes; its second test fails, which cuts the rest off *)
  ev. fold_arith. rewrite E2. lazy iota. rewrite (trim_once n _ L).
  destruct (n <? length (q ++ [v]))%nat; reflexivity.
Qed.

Theorem next_all o : next_agrees bodies o.
Proof.
  destruct o as [| | |f| | | | |? i| | | | | | | | | | | | | | |];
  lazymatch goal with
  | |- next_agrees _ (OTakeLast _) => apply next_take_last
  | |- next_agrees _ (OSkipLast _) => apply next_skip_last
  | |- next_agrees _ (OBufferCount _) => apply next_buffer_count
  | |- next_agrees _ (OStartWith _) => intros st v self H; destruct st; discriminate H
  | |- next_agrees _ (OFilterMap _) => start_next; ev; destruct (f v); reflexivity
  | |- next_agrees _ (OTakeWhile _ _) => destruct i; start_next; tie
  | |- next_agrees _ ODistinctUntilChanged => start_next; split_options; tie
  | |- next_agrees _ (ODistinctUntilKeyChanged _) => start_next; split_options; tie
  | |- next_agrees _ OPairwise => start_next; split_options; tie
  | _ => start_next; tie
  end.
Qed.

Ltac start_term :=
  let st := fresh "st" in let self := fresh "self" in let H := fresh "H" in
  intros st self H _; destruct st; try discriminate H;
  repeat match goal with b : bool |- _ => destruct b end;
  injection H as <-; (split; [|intros e]).

Theorem terminal_all o : terminal_agrees bodies o.
Proof.
  destruct o as [| | | | | | | |? i| | | | | | | | | | | | | | |];
  lazymatch goal with
  | |- terminal_agrees _ (OStartWith _) => intros st self H; destruct st; discriminate H
  | |- terminal_agrees _ (OTakeWhile _ _) => destruct i; start_term; tie
  | |- terminal_agrees _ OLast => start_term; split_options; tie
  | |- terminal_agrees _ (OBufferCount _) => start_term; try destruct q; tie
  | _ => start_term; tie
  end.
Qed.

(* take_last's `for value in self.queue.drain(..) { self.observer.next(value) }` on a concrete queue: the evaluator gives
   this loop form its meaning directly (emit_loop), since a queue of unknown length cannot be looped over symbolically *)
Example emit_loop_same :
  call_method bodies "ops/take_last.rs" FUEL "TakeLastObserver" "complete"
    (VStruct "TakeLastObserver" [("observer", VObs); ("count", VNat 3); ("queue", VItems [VZ 1; VZ 2; VZ 3])]) []
  = Some (VStruct "TakeLastObserver" [("observer", VObs); ("count", VNat 3); ("queue", VItems [])], [Next (VZ 1); Next (VZ 2); Next (VZ 3); Done], VUnit).
Proof. vm_compute. reflexivity. Qed.

(* ---- actual_subscribe builds the initial state and hands it to the source *)
Lemma init_all o : init_agrees bodies o.
Proof.
  destruct o; try (vm_compute; reflexivity).
  (* start_with: its values are pushed first *)
  lazy -[app map]. cbn [app]. rewrite app_nil_r. reflexivity.
Qed.

(* take_last's invariant *)
Lemma trim_length n (l : list val) : (length (trim n l) <= n)%nat.
Proof.
  induction l as [|x l IH]; unfold trim; fold trim.
  - destruct (Nat.leb_spec (length (@nil val)) n); cbn [length] in *; lia.
  - destruct (Nat.leb_spec (length (x :: l)) n); [assumption | exact IH].
Qed.

Lemma inv1_init o : inv1 o (init1 o).
Proof. destruct o; cbn; auto; lia. Qed.

Lemma inv1_step o st e : inv1 o st -> inv1 o (fst (step1 o st e)).
Proof.
  destruct o; try (intros _; exact I).
  destruct st; cbn [inv1 step1 fst]; auto. destruct e; cbn [fst inv1]; intros H; try assumption.
  - apply trim_length.
  - cbn [length]. lia.
Qed.

(* ---- whole scripts: the translated source computes run1 / run_op *)
Theorem src_run_agrees o : forall s st self,
  abs1 o st = Some self -> inv1 o st -> src_run bodies o self s = Some (run1 o st s).
Proof.
  induction s as [|e s IH]; intros st self Ha Hi; [reflexivity|].
  destruct e as [v|x|]; cbn [src_run run1 is_term].
  - pose proof (next_all o st v self Ha Hi) as Hn.
    destruct (step1 o st (Next v)) as [st' out] eqn:Es. cbn [fst snd] in Hn.
    destruct (abs1 o st') as [self'|] eqn:Ha'; [|contradiction].
    rewrite Hn. rewrite (IH st' self' Ha').
    + reflexivity.
    + pose proof (inv1_step o st (Next v) Hi) as Hs. rewrite Es in Hs. exact Hs.
  - destruct (terminal_all o st self Ha Hi) as [_ He]. rewrite (He x).
    destruct (step1 o st (Err x)) as [st' out]. cbn [snd]. rewrite app_nil_r. reflexivity.
  - destruct (terminal_all o st self Ha Hi) as [Hc _]. rewrite Hc.
    destruct (step1 o st Done) as [st' out]. cbn [snd]. rewrite app_nil_r. reflexivity.
Qed.

Theorem src_run_op_agrees o s : src_run_op bodies o s = Some (run_op o s).
Proof.
  unfold src_run_op, run_op. pose proof (init_all o) as Hi. unfold init_agrees in Hi.
  destruct (abs1 o (init1 o)) as [self0|] eqn:Ha.
  - rewrite Hi. pose proof (src_run_agrees o s (init1 o) self0 Ha (inv1_init o)) as Hr.
    assert (Hne : self0 <> VObs) by (destruct o; cbn in Ha; try discriminate Ha; injection Ha as <-; discriminate).
    destruct self0; try (rewrite Hr; reflexivity). contradiction Hne; reflexivity.
  - rewrite Hi. reflexivity.
Qed.

From RxSpec Require Import Ops1Spec.
From RxProofs Require Ops1Laws.
Theorem src_meets_spec o items t : src_run_op bodies o (mk items t) = Some (spec1 o items t).
Proof. rewrite src_run_op_agrees, Ops1Laws.op_meets_spec. reflexivity. Qed.
