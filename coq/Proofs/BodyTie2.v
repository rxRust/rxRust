(* The method bodies of the observers of the eight two-input operators, as translated from /repo/src on this run
   (Gen/Bodies.v: impl blocks inside the macros included) and given meaning by Model/RustSem.v, do exactly what the
   machines of Model/Ops2.v do: for every shared state, either input, every notification. *)
From RxModel Require Import BodyAbs2.
From RxGen Require Import Bodies.
From RxProofs Require Import BodyTie.
Open Scope string_scope.
Open Scope list_scope.

(* after the state and the notification have been taken apart: one goal per input, the method found *)
Ltac start2 sd := destruct sd; cbn [abs2 src2 snd]; unfold src_call2; cbn [src2 arg_of fst snd]; find_once.

(* Per operator, the state is taken apart as far as the bodies look into it.  For zip and combine_latest only an item
   looks at the queues / the latest values: those are the first eight goals. *)
Theorem step2_all o : step2_agrees bodies o.
Proof.
  intros [al xa xb ya yb done sk] sd e; destruct o.
  - (* merge *) destruct e; start2 sd; destruct al, done; vm_compute; reflexivity.
  - (* zip *) destruct e; start2 sd; destruct al, done.
    1-8: destruct xa, xb; vm_compute; reflexivity.
    all: vm_compute; reflexivity.
  - (* combine_latest *) destruct e; start2 sd; destruct al, done.
    1-8: destruct ya, yb; vm_compute; reflexivity.
    all: vm_compute; reflexivity.
  - (* with_latest_from *) destruct e; start2 sd; destruct al, yb; vm_compute; reflexivity.
  - (* take_until *) destruct e; start2 sd; destruct al; vm_compute; reflexivity.
  - (* skip_until *) destruct e; start2 sd; destruct al, sk; vm_compute; reflexivity.
  - (* sample *) destruct e; start2 sd; destruct al, ya; vm_compute; reflexivity.
  - (* buffer *) destruct e; start2 sd; destruct al, xa; vm_compute; reflexivity.
Qed.

(* whole timelines: the shared content after any merged sequence of calls on the two observers, and everything sent on *)
Fixpoint src_run2 (o : op2) (s : st2) (live_a live_b : bool) (tl : timeline) : option (list ev) :=
  match tl with
  | [] => Some []
  | (sd, e) :: r =>
      let live := match sd with A => live_a | B => live_b end in
      if live then
        match abs2 o sd s with
        | Some self =>
            match src_call2 bodies o sd (fst (arg_of e)) self (snd (arg_of e)) with
            | Some (_, out) =>
                (* both observers hold the same cell: the other one sees what this call left there *)
                let s' := fst (step2 o s sd e) in
                let la' := match sd with A => negb (is_term e) | B => live_a end in
                let lb' := match sd with B => negb (is_term e) | A => live_b end in
                match src_run2 o s' la' lb' r with Some rest => Some (out ++ rest) | None => None end
            | None => None
            end
        | None => None
        end
      else src_run2 o s live_a live_b r
  end.

Theorem src_run2_agrees o :
  forall tl s la lb, src_run2 o s la lb tl = Some (run2 o s la lb tl).
Proof.
  induction tl as [|[sd e] r IH]; intros s la lb; [reflexivity|].
  cbn [src_run2 run2].
  destruct (match sd with A => la | B => lb end); [|apply IH].
  pose proof (step2_all o s sd e) as H.
  destruct (abs2 o sd s) as [self|] eqn:Ea.
  - destruct (abs2 o sd (fst (step2 o s sd e))) as [self'|] eqn:Eb; [|contradiction].
    rewrite H. destruct (step2 o s sd e) as [s' out]. cbn [fst snd]. rewrite IH. reflexivity.
  - destruct (abs2 o sd (fst (step2 o s sd e))); contradiction.
Qed.
