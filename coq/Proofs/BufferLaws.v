(* C09 for buffer_with_time / buffer_with_count_and_time: under every label sequence the emitted
   buffers are never empty, never exceed the count limit, their concatenation is a prefix of the
   accepted input and the whole input once the output has completed. *)
From RxModel Require Import Timed.
From RxSpec Require Import TimedSpec.
From RxProofs Require Import ValEq TimedLaws CollectLaws.
Open Scope N_scope.

(* the parts of TimedSpec.buffers_ok under names (`items (w_src w)` is `src_items w`); RB_final and
   buffers_meet_spec put them together again, by conversion *)
Definition items (src : list (ev * N)) : list val :=
  flat_map (fun p => match fst p with Next v => [v] | _ => [] end) src.

Definition flatb (bufs : list val) : list val :=
  flat_map (fun b => match b with VL l => l | _ => [] end) bufs.

Definition size_okb (limit : option nat) (b : val) : bool :=
  match b with
  | VL l => negb (Nat.eqb (length l) 0) &&
            match limit with Some n => Nat.leb (length l) (Nat.max n 1) | None => true end
  | _ => false
  end.

Definition has_done (src : list (ev * N)) : bool :=
  existsb (fun p => match fst p with Done => true | _ => false end) src.
Definition has_err (src : list (ev * N)) : bool :=
  existsb (fun p => match fst p with Err _ => true | _ => false end) src.

Lemma is_prefix_app a b : is_prefix a (a ++ b) = true.
Proof.
  induction a as [|x a IH]; [reflexivity|]. cbn [app is_prefix]. rewrite val_eqb_refl, IH. reflexivity.
Qed.

Lemma is_prefix_refl a : is_prefix a a = true.
Proof. rewrite <- (app_nil_r a) at 2. apply is_prefix_app. Qed.

Lemma items_snoc src e t : items (src ++ [(e, t)]) = items src ++ match e with Next v => [v] | _ => [] end.
Proof. unfold items. rewrite flat_map_app. cbn. rewrite app_nil_r. reflexivity. Qed.

Lemma flatb_snoc bufs l : flatb (bufs ++ [VL l]) = flatb bufs ++ l.
Proof. unfold flatb. rewrite flat_map_app. cbn. rewrite app_nil_r. reflexivity. Qed.

(* run_sim_trace for a relation that ignores the output so far (`[]`: that output at the start);
   RelayCompleteLaws uses it under this name *)
Lemma run_sim_state {St} (step : list tlab -> St -> tout -> option St) (o : top) (R : tsys -> St -> Prop) :
  (forall ls_full done l r s w, ls_full = done ++ l :: r -> R s w ->
      exists w', walk (step ls_full) w (TMark (length done) :: snd (tstep o s l)) = Some w' /\ R (fst (tstep o s l)) w') ->
  forall r done s w ls_full,
    ls_full = done ++ r -> R s w ->
    exists w' s', walk (step ls_full) w (trun_sys o s (length done) r) = Some w' /\ R s' w'.
Proof.
  intros H r done. apply (run_sim_trace step o (fun _ => R)); [|exact []].
  intros ls_full done' l r' _. apply H.
Qed.

(* within the count limit (a limit of 0 flushes at every item: buffers of one) *)
Definition within (limit : option nat) (k : nat) : Prop :=
  match limit with Some n => (k <= Nat.max n 1)%nat | None => True end.

(* Over values: `al` the cell is occupied, `dn` the input has terminated, `fin` the walk saw a
   terminal, `dat` the buffer being filled, `src` the input log, `bufs` emitted.  `S (length dat)`:
   there is room for one more item, the count flush empties the buffer on reaching the limit. *)
Definition Bufs (limit : option nat) (al dn fin : bool) (dat : list val) (src : list (ev * N)) (bufs : list val) : Prop :=
  forallb (size_okb limit) bufs = true /\ within limit (S (length dat)) /\
  (* nothing has been lost so far *)
  flatb bufs ++ dat = items src /\
  (* once the cell is empty the input has terminated, and only an error leaves items behind *)
  (al = false -> dn = true /\ fin = true /\ (dat = [] \/ has_err src = true)).

(* BufferObserver::emit on the accumulated list *)
Definition emitted (dat : list val) (bufs : list val) : list val :=
  match dat with [] => bufs | _ :: _ => bufs ++ [VL dat] end.

Lemma bufs_add {limit dn fin dat src bufs} v t :
  Bufs limit true dn fin dat src bufs -> within limit (S (S (length dat))) ->
  Bufs limit true dn fin (dat ++ [v]) (src ++ [(Next v, t)]) bufs.
Proof.
  intros (B1 & B2 & B3 & _) Hb. split; [exact B1|split; [|split; [|discriminate]]].
  - rewrite app_length, Nat.add_1_r. exact Hb.
  - rewrite items_snoc, app_assoc, B3. reflexivity.
Qed.

Lemma bufs_emit {limit dn fin dat src bufs} :
  forallb (size_okb limit) bufs = true -> within limit (length dat) -> flatb bufs ++ dat = items src ->
  Bufs limit true dn fin [] src (emitted dat bufs).
Proof.
  intros B1 B2 B3. split; [|split; [destruct limit; cbn; [lia|exact I]|split; [|discriminate]]].
  - destruct dat as [|v dat]; [exact B1|]. unfold emitted. rewrite forallb_app, B1.
    cbn [forallb size_okb length Nat.eqb negb andb].
    rewrite Bool.andb_true_r. destruct limit; [apply Nat.leb_le; exact B2|reflexivity].
  - rewrite app_nil_r, <- B3. destruct dat; [symmetry; apply app_nil_r|apply flatb_snoc].
Qed.

Lemma bufs_term {limit fin dat src bufs e} t :
  Bufs limit true false fin dat src bufs -> is_term e = true -> dat = [] \/ e <> Done ->
  Bufs limit false true true dat (src ++ [(e, t)]) bufs.
Proof.
  intros (B1 & B2 & B3 & _) He Hc. split; [exact B1|split; [exact B2|split]].
  - rewrite items_snoc, B3. destruct e; [discriminate He|symmetry; apply app_nil_r..].
  - intros _. split; [reflexivity|split; [reflexivity|]]. destruct Hc as [Hc|Hc]; [left; exact Hc|right].
    unfold has_err. rewrite existsb_app. destruct e; [discriminate He| |destruct (Hc eq_refl)]. apply Bool.orb_true_r.
Qed.

Lemma bufs_mono {limit al dn dn' fin dat src bufs} :
  Bufs limit al dn fin dat src bufs -> (dn = true -> dn' = true) -> Bufs limit al dn' fin dat src bufs.
Proof.
  intros (B1 & B2 & B3 & B4) Hd. split; [exact B1|split; [exact B2|split; [exact B3|]]].
  intros Ha. destruct (B4 Ha) as (A & B & C). auto.
Qed.

(* the one task is the flush task; unsubscribe() cancels it *)
Definition Flush (s : tsys) (unsub : bool) : Prop :=
  jobs s = [JFlush] /\ main_task s = Some 0%nat /\ exists tk, tasks s = [tk] /\ (unsub = true -> t_keep tk = false).

Definition RB (limit : option nat) (s : tsys) (st : wstate * list val) : Prop :=
  Conn s (fst st) /\ Flush s (w_unsub (fst st)) /\
  Bufs limit (alive s) (src_done s) (w_finished (fst st)) (data s) (w_src (fst st)) (snd st).

Definition buf_op (limit : option nat) (o : top) : Prop :=
  match o, limit with
  | TBufferTime _, None => True
  | TBufferCountTime n _, Some m => n = m
  | _, _ => False
  end.

Lemma buf_op_not_raw limit o : buf_op limit o -> o <> TRaw.
Proof. intros H ->. destruct limit; exact H. Qed.

Definition flush_out (t : N) (vs : list val) : list tout :=
  match vs with [] => [] | _ :: _ => [TOut t (Next (VL vs))] end.

Lemma buffer_emit_eq s : alive s = true -> buffer_emit s = (upd_data s [], flush_out (now s) (data s)).
Proof.
  intros Ha. unfold buffer_emit. rewrite Ha. destruct (data s) eqn:E; [|reflexivity].
  destruct s; cbn in E; subst; reflexivity.
Qed.

Lemma walk_flush_out ls s w acc dat : Conn s w -> alive s = true -> w_unsub w = false ->
  walk (collect_step ls) (w, acc) (flush_out (now s) dat) = Some (w, emitted dat acc).
Proof.
  intros C Ha Hu. destruct dat as [|v dat]; [reflexivity|].
  pose proof (walk_item ls s w acc (VL (v :: dat)) C (fun _ => Hu)) as H. rewrite Ha in H. exact H.
Qed.

(* the count test is all that tells buffer_with_count_and_time from buffer_with_time *)
Definition over (limit : option nat) (k : nat) : bool :=
  match limit with Some n => Nat.leb n k | None => false end.

Lemma buf_on_src limit o s e : buf_op limit o -> alive s = true ->
  on_src o s e =
  match e with
  | Next v => if over limit (length (data s ++ [v])) then (upd_data s [], flush_out (now s) (data s ++ [v]))
              else (upd_data s (data s ++ [v]), [])
  | Err _ => (upd_alive s false, [TOut (now s) e])
  | Done => (upd_alive (upd_data s []) false, flush_out (now s) (data s) ++ [TOut (now s) Done])
  end.
Proof.
  intros Ho Ha. destruct o; try contradiction; destruct limit as [m|]; try contradiction; cbn in Ho; subst;
    destruct e; cbn [on_src over]; rewrite ?Ha, ?buffer_emit_eq, ?slot_term_eq by exact Ha;
    cbn [alive data now upd_data]; rewrite ?Ha; reflexivity.
Qed.

Definition buf_sim_goal (limit : option nat) (o : top) (ls : list tlab) (s : tsys) (w : wstate) (acc : list val) (l : tlab)
  : Prop :=
  exists st', walk (collect_step ls) (w_label w (Some l), acc) (snd (tstep o s l)) = Some st' /\
              RB limit (fst (tstep o s l)) st'.

Lemma buf_sim_src limit o ls s w acc e : buf_op limit o -> RB limit s (w, acc) -> buf_sim_goal limit o ls s w acc (LSrc e).
Proof.
  intros Ho (C & F & B). unfold buf_sim_goal. cbn [fst snd] in *.
  destruct (src_cases o s w e C) as [(on' & done' & -> & Hd & -> & C')|(Hd & Hu & -> & -> & C')].
  - (* dropped, and not logged *)
    eexists. split; [reflexivity|]. exact (conj C' (conj F (bufs_mono B Hd))).
  - (* the input had not terminated: the cell is occupied *)
    assert (Ha : alive s = true).
    { destruct (alive s) eqn:Ea; [reflexivity|]. destruct B as (_ & _ & _ & B4). destruct (B4 eq_refl) as [E _]. congruence. }
    rewrite Ha, Hd in B. destruct B as (B1 & B2 & B3 & B4).
    rewrite (buf_on_src limit o _ e Ho) by (destruct (is_term e); exact Ha).
    destruct e as [v|x|]; cbn [is_term fst snd] in *.
    + (* an item: appended; the count limit flushes *)
      assert (B3' : flatb acc ++ data s ++ [v] = items (w_src (w_log w (Next v) true))).
      { cbn [w_log w_src]. rewrite items_snoc, app_assoc, B3. reflexivity. }
      destruct (over limit (length (data s ++ [v]))) eqn:Eo; cbn [fst snd].
      * rewrite (walk_flush_out ls s _ acc _ C' Ha Hu). eexists. split; [reflexivity|].
        refine (conj C' (conj F _)). cbn [fst snd alive src_done data upd_data]. rewrite Ha, Hd.
        apply bufs_emit; [exact B1| |exact B3']. rewrite app_length, Nat.add_1_r. exact B2.
      * eexists. split; [reflexivity|].
        refine (conj C' (conj F _)). cbn [fst snd alive src_done data upd_data]. rewrite Ha, Hd.
        apply bufs_add; [repeat split; auto; discriminate|].
        rewrite app_length, Nat.add_1_r in Eo. destruct limit; [apply Nat.leb_gt in Eo; cbn; lia|exact I].
    + (* an error: forwarded at once *)
      destruct (walk_term_eq ls (upd_src s false true) _ acc (Err x) eq_refl C') as [Hw C1]; [auto|].
      cbn [alive upd_src] in Hw, C1. rewrite Ha in Hw, C1. eexists. split; [exact Hw|].
      refine (conj C1 (conj F _)). cbn [fst snd alive src_done data upd_alive upd_src w_term w_finished w_src].
      rewrite Bool.orb_true_r.
      apply (@bufs_term _ (w_finished w)); [repeat split; auto; discriminate|reflexivity|right; discriminate].
    + (* completion: the pending buffer first *)
      rewrite walk_app, (walk_flush_out ls (upd_src s false true) _ acc _ C' Ha Hu).
      destruct (walk_term_eq ls (upd_data (upd_src s false true) []) _ (emitted (data s) acc) Done eq_refl C')
        as [Hw C1]; [auto|].
      cbn [alive upd_data upd_src] in Hw, C1. rewrite Ha in Hw, C1. eexists. split; [exact Hw|].
      refine (conj C1 (conj F _)). cbn [fst snd alive src_done data upd_alive upd_data upd_src w_term w_finished w_src].
      rewrite Bool.orb_true_r. apply (@bufs_term _ (w_finished w)); [|reflexivity|left; reflexivity].
      apply bufs_emit; [exact B1|destruct limit; cbn in *; [lia|exact I]|exact B3].
Qed.

Lemma after_tick_keep now tk c : t_keep (after_tick now tk c) = t_keep tk.
Proof. unfold after_tick. destruct (t_body tk); [reflexivity|]. destruct c; reflexivity. Qed.

(* only the flush task exists; cancelled, it does not run *)
Lemma buf_sim_run limit o ls s w acc t : buf_op limit o -> RB limit s (w, acc) -> buf_sim_goal limit o ls s w acc (LRun t).
Proof.
  intros Ho (C & (Fj & Fm & tk & Ft & Fk) & B). unfold buf_sim_goal. cbn [fst snd] in *.
  assert (F' : forall s' tk', jobs s' = jobs s -> main_task s' = main_task s -> tasks s' = [tk'] -> t_keep tk' = t_keep tk ->
                 Flush s' (w_unsub w)).
  { intros s' tk' E1 E2 E3 E4. split; [congruence|]. split; [congruence|]. exists tk'. rewrite E4. auto. }
  cbn [tstep]. rewrite Ft, Fj, !nth_error_single.
  destruct t as [|t]; [|eexists; split; [reflexivity|exact (conj C (conj (F' s tk eq_refl eq_refl Ft eq_refl) B))]].
  pose proof (SchedLaws.poll_cases (now s) tk) as P.
  destruct (poll (now s) tk) as [tk1 res]. destruct P as (_ & Hk1 & _ & P). cbn [fst snd set_nth] in *.
  destruct res as [|jn seq rep];
    [eexists; split; [reflexivity|exact (conj C (conj (F' (upd_tasks s [tk1]) tk1 eq_refl eq_refl eq_refl Hk1) B))]|].
  assert (Hu : w_unsub w = false).
  { destruct (w_unsub w); [|reflexivity]. destruct P as [K _]. rewrite (Fk eq_refl) in K. discriminate K. }
  cbn [on_job alive down_fin upd_tasks]. destruct (alive s && negb (down_fin s)) eqn:Eg.
  - (* the flush *)
    apply andb_true_iff in Eg as [Ea _]. rewrite buffer_emit_eq by exact Ea. cbn [now data upd_tasks].
    assert (B' : Bufs limit (alive s) (src_done s) (w_finished w) [] (w_src w) (emitted (data s) acc)).
    { destruct B as (B1 & B2 & B3 & _). rewrite Ea.
      apply bufs_emit; [exact B1|destruct limit; cbn in *; [lia|exact I]|exact B3]. }
    destruct rep; cbn [fst snd tasks upd_data upd_tasks nth_error set_nth];
      rewrite (walk_flush_out ls s (w_label w (Some (LRun 0))) acc _ C Ea Hu); (eexists; split; [reflexivity|]);
      (refine (conj C (conj _ B')); eapply F'; try reflexivity; rewrite ?after_tick_keep; exact Hk1).
  - (* the cell is empty or the downstream has finished: the task stops *)
    destruct rep; cbn [fst snd tasks upd_tasks nth_error set_nth]; (eexists; split; [reflexivity|]);
      (refine (conj C (conj _ B)); eapply F'; try reflexivity; rewrite ?after_tick_keep; exact Hk1).
Qed.

Lemma buf_sim_unsub limit o ls s w acc : buf_op limit o -> RB limit s (w, acc) -> buf_sim_goal limit o ls s w acc LUnsub.
Proof.
  intros Ho (C & (Fj & Fm & tk & Ft & Fk) & B). unfold buf_sim_goal. cbn [fst snd] in *.
  assert (E : tstep o s LUnsub = (upd_src (upd_tasks s [cancel tk]) false (src_done s), [])).
  { destruct o; try contradiction; cbn [tstep on_unsub]; rewrite Fm; unfold unsub_handle, cancel_task;
      rewrite Ft, Fj; reflexivity. }
  rewrite E. eexists. split; [reflexivity|]. split; [|split; [|exact B]].
  - apply (conn_unsub s); auto.
  - split; [exact Fj|]. split; [exact Fm|]. exists (cancel tk). auto.
Qed.

Lemma buf_sim_idle limit o ls s w acc l :
  buf_op limit o -> idle_label l -> RB limit s (w, acc) -> buf_sim_goal limit o ls s w acc l.
Proof.
  intros Ho Hl (C & R). unfold buf_sim_goal. cbn [fst snd] in *. destruct l; try contradiction; destruct o; try contradiction;
    (eexists; split; [reflexivity|]); (split; [|exact R]); exact C || apply conn_adv, C.
Qed.

Lemma buffer_step_sim limit o :
  buf_op limit o ->
  forall ls_full done l r s st, ls_full = done ++ l :: r -> RB limit s st ->
    exists st', walk (collect_step ls_full) st (TMark (length done) :: snd (tstep o s l)) = Some st' /\
                RB limit (fst (tstep o s l)) st'.
Proof.
  intros Ho ls_full done l r s [w acc] E H0. rewrite (collect_mark _ _ _ _ _ _ _ E).
  change (buf_sim_goal limit o ls_full s w acc l).
  destruct l; [apply buf_sim_src|apply buf_sim_run|apply buf_sim_idle|apply buf_sim_unsub|apply buf_sim_idle..]; auto; exact I.
Qed.

Lemma RB_init limit o : buf_op limit o -> RB limit (tinit o) (w0 true, []).
Proof.
  intros Ho. destruct o; try contradiction; destruct limit as [m|]; try contradiction;
    (split; [apply conn_init; reflexivity|]; split; [repeat split; eexists; split; [reflexivity|discriminate]|]);
    repeat split; try discriminate; cbn; lia.
Qed.

Lemma RB_final limit s w acc :
  RB limit s (w, acc) ->
  forallb (size_okb limit) acc && is_prefix (flatb acc) (items (w_src w)) &&
  (negb (w_finished w && has_done (w_src w) && negb (has_err (w_src w))) ||
   Nat.eqb (length (flatb acc)) (length (items (w_src w)))) = true.
Proof.
  intros ((_ & _ & _ & _ & C5) & _ & B1 & _ & B3 & B4). cbn [fst snd] in *.
  rewrite B1, <- B3, is_prefix_app. cbn [andb]. destruct (alive s).
  - destruct (w_finished w); [discriminate (C5 eq_refl)|reflexivity].
  - destruct (B4 eq_refl) as (_ & _ & [E|E]); rewrite E; [rewrite app_nil_r, Nat.eqb_refl; apply Bool.orb_true_r|].
    rewrite Bool.andb_false_r. reflexivity.
Qed.

Theorem buffers_meet_spec limit o ls :
  buf_op limit o -> buffers_ok limit ls (run_timed o ls) = true.
Proof.
  intros Ho. unfold buffers_ok, run_timed.
  destruct (run_sim_state collect_step o (RB limit) (buffer_step_sim limit o Ho) ls [] (tinit o) (w0 true, []) ls
              eq_refl (RB_init limit o Ho)) as ([w acc] & s' & Hw & HR).
  cbn [length] in Hw. rewrite Hw. apply (RB_final limit s' w acc HR).
Qed.

Theorem buffer_time_meets_spec : forall d ls, buffers_ok None ls (run_timed (TBufferTime d) ls) = true.
Proof. intros d ls. apply buffers_meet_spec. exact I. Qed.

Theorem buffer_count_time_meets_spec :
  forall n d ls, buffers_ok (Some n) ls (run_timed (TBufferCountTime n d) ls) = true.
Proof. intros n d ls. apply buffers_meet_spec. reflexivity. Qed.

Print Assumptions buffer_time_meets_spec.
Print Assumptions buffer_count_time_meets_spec.

(* the items of `vs` arrive, nothing between them *)
Definition feed (vs : list val) : list tlab := map (fun v => LSrc (Next v)) vs.

(* per window: its items arrive, the window elapses, the flush task is polled at once *)
Fixpoint windows (d : N) (vss : list (list val)) : list tlab :=
  match vss with
  | [] => []
  | vs :: r => feed vs ++ LAdv d :: LRun 0 :: windows d r
  end.

(* what arrived in each window, as one buffer at its end (nothing if empty) *)
Fixpoint expected_flushes (d t : N) (vss : list (list val)) : list tout :=
  match vss with
  | [] => []
  | vs :: r => flush_out (t + d) vs ++ expected_flushes d (t + d) r
  end.

(* with a count limit the window stays below it (else the count flushes first) *)
Definition fits (limit : option nat) (vs : list val) : Prop :=
  match limit with Some n => (length vs < n)%nat | None => True end.

Lemma feed_items limit o :
  buf_op limit o -> forall vs s,
  src_done s = false -> src_on s = true -> alive s = true ->
  match limit with Some n => (length (data s) + length vs < n)%nat | None => True end ->
  routs o s (feed vs) = [] /\ tfinal o s (feed vs) = upd_data s (data s ++ vs).
Proof.
  intros Ho vs. induction vs as [|v vs IH]; intros s Hsd Hson Ha Hfit.
  - split; [reflexivity|]. cbn [feed map tfinal]. rewrite app_nil_r. destruct s; reflexivity.
  - assert (Hstep : tstep o s (LSrc (Next v)) = (upd_data s (data s ++ [v]), [])).
    { cbn [tstep]. rewrite Hsd, Hson. cbn [is_term]. rewrite (buf_on_src limit o s _ Ho Ha).
      replace (over limit _) with false; [reflexivity|]. rewrite app_length. cbn [length] in *.
      destruct limit; [symmetry; apply Nat.leb_gt; lia|reflexivity]. }
    cbn [feed map]. fold (feed vs). edestruct step_cons as [-> ->]; [exact Hstep|].
    destruct (IH (upd_data s (data s ++ [v]))) as [-> ->]; cbn [upd_data src_done src_on alive data]; auto.
    { destruct limit as [m|]; [|exact I]. rewrite app_length. cbn [length] in *. lia. }
    split; [reflexivity|]. rewrite <- app_assoc. reflexivity.
Qed.

Lemma windows_gen limit o d :
  buf_op limit o ->
  forall vss k s tk,
    Forall (fits limit) vss ->
    tasks s = [tk] -> jobs s = [JFlush] -> down_fin s = false -> alive s = true ->
    src_on s = true -> src_done s = false -> data s = [] ->
    t_stage tk = StBody -> t_keep tk = true -> t_body tk = BRepeat 0 d (now s + d) k ->
    routs o s (windows d vss) = expected_flushes d (now s) vss.
Proof.
  intros Ho vss. induction vss as [|vs vss IH]; intros k s tk Hfit Ht Hj Hdf Ha Hson Hsd Hd Hst Hk Hb; [reflexivity|].
  cbn [windows expected_flushes]. rewrite routs_app.
  inversion Hfit as [|x l Hfit1 Hfit2]; subst x l.
  destruct (feed_items limit o Ho vs s Hsd Hson Ha) as [-> ->].
  { rewrite Hd. destruct limit as [m|]; [exact Hfit1|exact I]. }
  rewrite Hd. cbn [app].
  (* the clock reaches the timer of the flush task; the poll flushes and re-arms it *)
  set (s1 := upd_now (upd_data s vs) (now s + d)).
  destruct (poll_kept (now s + d) tk Hk) as (tk1 & P & K1 & B1 & S1).
  rewrite Hst in P, S1. cbn [stage_poll fst snd] in P, S1.
  assert (E : tstep o s1 (LRun 0) =
              (upd_tasks (upd_data s1 []) [after_tick (now s + d) tk1 true], flush_out (now s + d) vs)).
  { unfold s1. cbn [tstep upd_now upd_data tasks jobs now]. rewrite Ht, Hj. cbn [nth_error set_nth].
    rewrite P. unfold poll_body. rewrite B1, Hb, N.ltb_irrefl.
    cbn [on_job alive down_fin upd_tasks upd_now upd_data]. rewrite Ha, Hdf. cbn [negb andb].
    rewrite buffer_emit_eq by exact Ha. reflexivity. }
  rewrite (proj1 (step_cons o (upd_data s vs) (LAdv d) _ s1 [] eq_refl)), (proj1 (step_cons _ _ _ _ _ _ E)).
  cbn [touts filter app].
  f_equal; [destruct vs; reflexivity|].
  refine (IH (S k) (upd_tasks (upd_data s1 []) [after_tick (now s + d) tk1 true]) _ Hfit2 eq_refl Hj Hdf Ha Hson Hsd eq_refl _ _ _);
    unfold after_tick; rewrite B1, Hb; assumption || reflexivity.
Qed.

Lemma windows_run limit o d vss :
  buf_op limit o -> tinit o = tinit (TBufferTime d) -> Forall (fits limit) vss ->
  touts (run_timed o (windows d vss)) = expected_flushes d 0 vss.
Proof.
  intros Ho Hi Hfit. unfold run_timed. rewrite touts_run, Hi.
  eapply (windows_gen limit o d Ho vss 0%nat (tinit (TBufferTime d)) _ Hfit); reflexivity.
Qed.

(* any number of windows (also for d = 0: a zero window flushes at once) *)
Theorem buffer_time_windows d vss :
  touts (run_timed (TBufferTime d) (windows d vss)) = expected_flushes d 0 vss.
Proof.
  apply (windows_run None (TBufferTime d) d vss I eq_refl). apply Forall_forall. intros x _. exact I.
Qed.

Theorem buffer_count_time_windows n d vss :
  Forall (fun vs => (length vs < n)%nat) vss ->
  touts (run_timed (TBufferCountTime n d) (windows d vss)) = expected_flushes d 0 vss.
Proof. apply (windows_run (Some n) (TBufferCountTime n d) d vss eq_refl eq_refl). Qed.

(* instances (the hypothesis on d is not used) *)
Theorem buffer_time_prompt d vs :
  0 < d ->
  touts (run_timed (TBufferTime d) (map (fun v => LSrc (Next v)) vs ++ [LAdv d; LRun 0]))
  = match vs with [] => [] | _ :: _ => [TOut d (Next (VL vs))] end.
Proof.
  intros _. pose proof (buffer_time_windows d [vs]) as H.
  cbn [windows expected_flushes] in H. rewrite app_nil_r in H. exact H.
Qed.

Theorem buffer_time_prompt_two d vs1 vs2 :
  0 < d ->
  touts (run_timed (TBufferTime d)
           (map (fun v => LSrc (Next v)) vs1 ++ [LAdv d; LRun 0] ++
            map (fun v => LSrc (Next v)) vs2 ++ [LAdv d; LRun 0]))
  = match vs1 with [] => [] | _ :: _ => [TOut d (Next (VL vs1))] end ++
    match vs2 with [] => [] | _ :: _ => [TOut (d + d) (Next (VL vs2))] end.
Proof.
  intros _. pose proof (buffer_time_windows d [vs1; vs2]) as H.
  cbn [windows expected_flushes] in H. rewrite app_nil_r in H. exact H.
Qed.

Print Assumptions buffer_time_windows.
Print Assumptions buffer_count_time_windows.
Print Assumptions buffer_time_prompt.
Print Assumptions buffer_time_prompt_two.

(* why `fits` is needed with a count limit: a window that reaches the count is flushed by the count first *)
Example count_flushes_first :
  touts (run_timed (TBufferCountTime 2 5) (windows 5 [[VZ 1; VZ 2; VZ 3]]))
  = [TOut 0 (Next (VL [VZ 1; VZ 2])); TOut 5 (Next (VL [VZ 3]))].
Proof. vm_compute. reflexivity. Qed.

Example windows_example :
  touts (run_timed (TBufferTime 5) (windows 5 [[VZ 1; VZ 2]; []; [VZ 3]]))
  = [TOut 5 (Next (VL [VZ 1; VZ 2])); TOut 15 (Next (VL [VZ 3]))].
Proof. vm_compute. reflexivity. Qed.
