(* from_future / from_stream relay exactly what the future / stream yields, then terminate;
   nothing after unsubscribe. *)
From RxModel Require Import Async.

Definition outs (o : list aout) : list ev :=
  flat_map (fun x => match x with AOut e => [e] | ARet _ => [] end) o.

Lemma pump_yields k script :
  let '(o, r, f) := pump k script in
  yields k script = o ++ (if f then [] else yields k r).
Proof.
  induction script as [|x r IH]; [destruct k; reflexivity|].
  destruct x; cbn [pump yields]; destruct k; try reflexivity;
    destruct (pump _ r) as [[o r'] f]; cbn; rewrite IH; reflexivity.
Qed.

Lemma outs_app a b : outs (a ++ b) = outs a ++ outs b.
Proof. apply flat_map_app. Qed.

Lemma outs_map o : outs (map AOut o) = o.
Proof. induction o as [|x o IH]; [reflexivity|]. cbn. f_equal. exact IH. Qed.

Lemma finished_quiet k : forall m s, a_finished s = true -> arun' k s (repeat APoll m) = [].
Proof. induction m as [|m IHm]; intros s H; [reflexivity|]. cbn. rewrite H. cbn. apply IHm, H. Qed.

(* any number of polls: what has been delivered is a prefix of what the source yields *)
Theorem async_prefix k : forall n s,
  a_keep s = true -> a_finished s = false ->
  exists rest, yields k (a_script s) = outs (arun' k s (repeat APoll n)) ++ rest.
Proof.
  induction n as [|n IH]; intros s Hk Hf; [exists (yields k (a_script s)); reflexivity|].
  cbn [repeat arun' astep]. rewrite Hf, Hk. cbn [negb].
  pose proof (pump_yields k (a_script s)) as P. destruct (pump k (a_script s)) as [[o r] f].
  rewrite outs_app, outs_map. destruct f.
  - rewrite finished_quiet by reflexivity. exists []. rewrite P. cbn. rewrite !app_nil_r. reflexivity.
  - destruct (IH {| a_script := r; a_finished := false; a_keep := true; a_value := false |} eq_refl eq_refl) as [rest Hr].
    cbn [a_script] in Hr. exists rest. rewrite P, Hr, app_assoc. reflexivity.
Qed.

(* nothing is delivered after unsubscribe() *)
Theorem async_silent_after_unsub k : forall ls s,
  a_keep s = false -> outs (arun' k s ls) = [].
Proof.
  induction ls as [|l r IH]; intros s Hk; [reflexivity|].
  destruct l; cbn [arun' astep].
  - destruct (a_finished s) eqn:Ef; cbn.
    + apply IH, Hk.
    + rewrite Hk. cbn. apply IH. reflexivity.
  - cbn. apply IH. reflexivity.
  - cbn. apply IH, Hk.
Qed.

(* ---------- relayed completely once polled often enough ----------
   An entry of the script that makes a poll of the task return without finishing: Pending for every kind; for a future
   also the answers a future cannot give (end of stream; an error for the infallible form), which the model treats as
   "not ready yet". *)
Definition waiting (k : akind) (x : presult) : bool :=
  match k, x with
  | _, PPending => true
  | AFuture, PFail _ | AFuture, PEnd | AFutureResult, PEnd => true
  | _, _ => false
  end.

Fixpoint waits (k : akind) (script : list presult) : nat :=
  match script with [] => 0 | x :: r => (if waiting k x then 1 else 0) + waits k r end.

(* a poll that does not finish has used up exactly one waiting entry *)
Lemma pump_waits k script :
  script <> [] -> snd (pump k script) = false -> waits k script = S (waits k (snd (fst (pump k script)))).
Proof.
  induction script as [|x r IH]; intros Hne; [destruct (Hne eq_refl)|].
  destruct x, k; cbn [pump waits waiting]; try discriminate; try reflexivity.
  (* a stream goes on to the rest of the script, which is not exhausted: that would finish it *)
  all: destruct r as [|y r]; [cbn; discriminate|]; specialize (IH ltac:(discriminate));
    destruct (pump _ (y :: r)) as [[o r'] f]; exact IH.
Qed.

Lemma future_never_ready k : (k = AFuture \/ k = AFutureResult) ->
  forall n, outs (arun' k {| a_script := []; a_finished := false; a_keep := true; a_value := false |} (repeat APoll n)) = [].
Proof.
  intros Hk n. induction n as [|n IH]; [reflexivity|].
  cbn [repeat arun' astep a_finished a_keep negb a_script].
  destruct Hk as [-> | ->]; cbn [pump map app outs flat_map]; exact IH.
Qed.

Theorem relayed_complete k : forall n script, (waits k script < n)%nat ->
  outs (arun' k {| a_script := script; a_finished := false; a_keep := true; a_value := false |} (repeat APoll n))
  = yields k script.
Proof.
  induction n as [|n IH]; intros script Hn; [inversion Hn|].
  cbn [repeat arun' astep a_finished a_keep negb a_script].
  pose proof (pump_yields k script) as P. pose proof (pump_waits k script) as C.
  destruct (pump k script) as [[o r] f] eqn:E. cbn [fst snd] in *.
  rewrite outs_app, outs_map, P. f_equal. destruct f.
  - rewrite finished_quiet by reflexivity. reflexivity.
  - destruct script as [|x script].
    + (* only a future leaves an exhausted script unfinished, and it is never ready *)
      assert (Hk : k = AFuture \/ k = AFutureResult) by (destruct k; cbn in E; try discriminate; auto).
      assert (r = []) by (destruct Hk as [-> | ->]; cbn in E; congruence). subst r.
      rewrite (future_never_ready k Hk). destruct Hk as [-> | ->]; reflexivity.
    + apply IH. rewrite C in Hn by (discriminate || reflexivity). lia.
Qed.

(* a stream that is pending m times in total is relayed completely by m + 1 polls (or more) *)
Lemma waits_pendings k script : (k = AStream \/ k = AStreamResult) -> waits k script = pendings script.
Proof.
  intros Hk. induction script as [|x r IH]; [reflexivity|].
  destruct x, Hk as [-> | ->]; cbn [waits waiting pendings plus]; congruence.
Qed.

Theorem async_complete_gen k :
  (k = AStream \/ k = AStreamResult) ->
  forall n script, (pendings script < n)%nat ->
    outs (arun' k {| a_script := script; a_finished := false; a_keep := true; a_value := false |} (repeat APoll n))
    = yields k script.
Proof. intros Hk n script Hn. apply relayed_complete. rewrite (waits_pendings k script Hk). exact Hn. Qed.

(* in particular, a source that is never pending is relayed completely by the first poll *)
Fixpoint never_pending (script : list presult) : bool :=
  match script with [] => true | PPending :: _ => false | _ :: r => never_pending r end.

Lemma never_pending_count script : never_pending script = true -> pendings script = 0%nat.
Proof. induction script as [|x r IH]; [reflexivity|]. destruct x; cbn; auto. discriminate. Qed.

Theorem async_complete k script :
  never_pending script = true -> (k = AStream \/ k = AStreamResult) ->
  outs (arun' k {| a_script := script; a_finished := false; a_keep := true; a_value := false |} [APoll]) = yields k script.
Proof. intros H Hk. apply (async_complete_gen k Hk 1). rewrite (never_pending_count _ H). constructor. Qed.

Theorem future_complete k :
  (k = AFuture \/ k = AFutureResult) ->
  forall n script, (waits k script < n)%nat ->
    outs (arun' k {| a_script := script; a_finished := false; a_keep := true; a_value := false |} (repeat APoll n))
    = yields k script.
Proof. intros _. apply relayed_complete. Qed.
