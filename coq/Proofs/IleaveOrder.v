(* Ileave.v, C10 / C06: every probe sees the broadcasts as a sub-sequence of one global order. *)
From RxProofs Require Export IleaveInv.
Local Open Scope nat_scope.

Lemma bid_eqb_eq a b : bid_eqb a b = true <-> a = b.
Proof.
  destruct a as [a1 a2], b as [b1 b2]. unfold bid_eqb. cbn.
  rewrite andb_true_iff, !Nat.eqb_eq. split; [intros [-> ->]; reflexivity|intros H; inversion H; auto].
Qed.

Lemma bid_eqb_refl a : bid_eqb a a = true.
Proof. apply bid_eqb_eq. reflexivity. Qed.

Lemma bid_eqb_neq a b : bid_eqb a b = false <-> a <> b.
Proof. rewrite <- bid_eqb_eq. symmetry. apply not_true_iff_false. Qed.

Lemma memb_In b l : memb b l = true <-> In b l.
Proof.
  unfold memb. rewrite existsb_exists. split.
  - intros (x & Hx & He). apply bid_eqb_eq in He. subst. exact Hx.
  - intros H. exists b. split; auto. apply bid_eqb_refl.
Qed.

Lemma subseq_nil b : subseq_bids [] b = true.
Proof. destruct b; reflexivity. Qed.

Lemma subseq_app_r a b c : subseq_bids a b = true -> subseq_bids a (b ++ c) = true.
Proof.
  revert a. induction b as [|y b IH]; intros [|x a]; cbn; rewrite ?subseq_nil; auto; try discriminate.
  destruct (bid_eqb x y); auto.
Qed.

Lemma subseq_snoc_both a b x : subseq_bids a b = true -> subseq_bids (a ++ [x]) (b ++ [x]) = true.
Proof.
  revert a. induction b as [|y b IH]; intros [|z a]; cbn; try discriminate.
  - intros _. rewrite bid_eqb_refl. reflexivity.
  - intros _. destruct (bid_eqb x y); [apply subseq_nil|]. apply (IH []). apply subseq_nil.
  - destruct (bid_eqb z y); intros H.
    + apply IH; auto.
    + apply (IH (z :: a)); auto.
Qed.

Lemma subseq_drop_last a b x : subseq_bids a (b ++ [x]) = true -> ~ In x a -> subseq_bids a b = true.
Proof.
  revert a. induction b as [|y b IH]; intros [|z a]; cbn; rewrite ?subseq_nil; auto.
  - destruct (bid_eqb z x) eqn:E.
    + apply bid_eqb_eq in E. subst. intros _ H. exfalso. apply H. auto.
    + destruct a; discriminate.
  - destruct (bid_eqb z y); intros H Hn.
    + apply IH; auto.
    + apply (IH (z :: a)); auto.
Qed.

Lemma first_seen_snoc seen l b :
  first_seen seen (l ++ [b]) = first_seen seen l ++ (if memb b seen || memb b l then [] else [b]).
Proof.
  revert seen. induction l as [|x l IH]; intros seen; cbn.
  - rewrite orb_false_r. destruct (memb b seen); reflexivity.
  - destruct (memb x seen) eqn:Ex.
    + rewrite IH. f_equal. destruct (bid_eqb b x) eqn:E; cbn; [|reflexivity].
      apply bid_eqb_eq in E. subst. rewrite Ex. reflexivity.
    + cbn. rewrite IH. f_equal. cbn. rewrite orb_assoc. rewrite (orb_comm (memb b seen)). reflexivity.
Qed.

Lemma first_seen_in seen l b : In b (first_seen seen l) <-> In b l /\ memb b seen = false.
Proof.
  revert seen. induction l as [|x l IH]; intros seen; cbn; [tauto|].
  destruct (memb x seen) eqn:Ex.
  - rewrite IH. split; [tauto|]. intros [[->|H] Hm]; [congruence|tauto].
  - cbn. rewrite IH. cbn. rewrite orb_false_iff, bid_eqb_neq. split.
    + intros [->|(H1 & H2 & H3)]; auto.
    + intros [[->|H] Hm]; auto. destruct (bid_eqb b x) eqn:E.
      * apply bid_eqb_eq in E. auto.
      * apply bid_eqb_neq in E. right. repeat split; auto.
Qed.

(* an entry of `bcasts`: probe, value, broadcast.  bidsL and ordL are bids_of and order on such a list *)
Definition bent := (nat * Z * bid)%type.

Definition bidsL (L : list bent) (k : nat) : list bid :=
  flat_map (fun x : bent => if Nat.eqb (fst (fst x)) k then [snd x] else []) L.
Definition ordL (L : list bent) : list bid := first_seen [] (map snd L).

Lemma bids_of_L scripts tr k : bids_of scripts tr k = bidsL (bcasts scripts tr) k.
Proof. reflexivity. Qed.
Lemma order_L scripts tr : order scripts tr = ordL (bcasts scripts tr).
Proof. reflexivity. Qed.

Lemma ordL_in L b : In b (ordL L) <-> In b (map snd L).
Proof. unfold ordL. rewrite first_seen_in. cbn. tauto. Qed.

Lemma memb_ordL L b : memb b (map snd L) = true <-> In b (ordL L).
Proof. rewrite memb_In, ordL_in. tauto. Qed.

Lemma bidsL_in L k b : In b (bidsL L k) -> In b (ordL L).
Proof.
  rewrite ordL_in. unfold bidsL. rewrite in_flat_map. intros (x & Hx & Hb).
  destruct (Nat.eqb (fst (fst x)) k); [|contradiction]. destruct Hb as [<-|[]].
  apply in_map. exact Hx.
Qed.

Lemma bidsL_snoc L k v b k' :
  bidsL (L ++ [(k, v, b)]) k' = bidsL L k' ++ (if Nat.eqb k k' then [b] else []).
Proof. unfold bidsL. rewrite flat_map_app. cbn. rewrite app_nil_r. reflexivity. Qed.

Lemma ordL_snoc L k v b :
  ordL (L ++ [(k, v, b)]) = ordL L ++ (if memb b (map snd L) then [] else [b]).
Proof. unfold ordL. rewrite map_app. cbn [map snd]. rewrite first_seen_snoc. reflexivity. Qed.

Lemma ordL_snoc_in L k v b x : In x (ordL (L ++ [(k, v, b)])) <-> In x (ordL L) \/ x = b.
Proof.
  rewrite !ordL_in, map_app, in_app_iff. cbn. split; intros [H|H]; auto.
  - destruct H as [H|[]]; auto.
Qed.

(* observer list and chamber together name every subscribed probe once, and each has a cell *)
Definition olist (o : option (list nat)) : list nat := match o with Some l => l | None => [] end.

Definition ObsInv (s : ish) : Prop :=
  NoDup (olist (s_obs s) ++ olist (s_cham s)) /\
  forall k, In k (olist (s_obs s) ++ olist (s_cham s)) -> cell_known s k = true.

(* the thread holds the snapshot of the observer list and is serving it *)
Definition deliv (pc : ipc) : bool := match pc with PCell _ _ | PInCb _ _ _ => true | _ => false end.
(* the probes of the snapshot not yet served, the one being served included *)
Definition pending (pc : ipc) : list nat :=
  match pc with PCell _ rest => rest | PInCb _ k rest => k :: rest | _ => [] end.

Lemma ObsInv_kill s k : ObsInv s -> ObsInv (kill_cell s k).
Proof.
  intros [H1 H2]. split; [exact H1|]. intros x Hx. rewrite known_kill. apply H2. exact Hx.
Qed.

Lemma ObsInv_sub s k : ObsInv s -> cell_known s k = false -> ObsInv (subscribe_cell s k).
Proof.
  intros [H1 H2] Hk. unfold ObsInv. rewrite obs_sub, cham_sub.
  assert (Hkn : forall x, cell_known s x = true -> cell_known (subscribe_cell s k) x = true).
  { intros x Hx. rewrite known_sub, Hx. reflexivity. }
  destruct (s_cham s) as [c|]; cbn [olist] in *; [|split; auto].
  rewrite app_assoc. split.
  - apply NoDup_app_iff. split; [exact H1|]. split; [constructor; [intros []|constructor]|].
    intros x Hx [<-|[]]. rewrite (H2 _ Hx) in Hk. discriminate.
  - intros x Hx. apply in_app_or in Hx. destruct Hx as [Hx|[<-|[]]]; [auto|].
    rewrite known_sub, Nat.eqb_refl. apply orb_true_r.
Qed.

Lemma ObsInv_obs_none s : ObsInv s -> ObsInv (set_obs s None).
Proof.
  intros [H1 H2]. unfold ObsInv. cbn. apply NoDup_app_iff in H1. destruct H1 as (_ & H1 & _).
  split; [exact H1|]. intros x Hx. apply H2. apply in_or_app. auto.
Qed.

Lemma ObsInv_cham_none s : ObsInv s -> ObsInv (set_cham s None).
Proof.
  intros [H1 H2]. unfold ObsInv. cbn. apply NoDup_app_iff in H1. destruct H1 as (H1 & _ & _).
  rewrite app_nil_r. split; [exact H1|]. intros x Hx. apply H2. apply in_or_app. auto.
Qed.

Lemma ObsInv_load s o c :
  s_obs s = Some o -> s_cham s = Some c -> ObsInv s ->
  ObsInv (set_cham (set_obs s (Some (o ++ c))) (Some [])).
Proof.
  intros Eo Ec [H1 H2]. unfold ObsInv in *. rewrite Eo, Ec in *. cbn in *. rewrite app_nil_r.
  split; auto.
Qed.

Lemma F_obsinv s t th s1 th1 o :
  imove s t th = (s1, th1, o) -> ObsInv s ->
  (forall k, sub_now th = Some k -> cell_known s k = false) -> ObsInv s1.
Proof.
  intros H%imove_istep. destruct H; unfold sub_now; cbn [t_pc t_ops]; intros HO Hs; try exact HO.
  all: first [ exact (ObsInv_kill _ _ HO)
             | exact (ObsInv_sub _ _ HO (Hs _ eq_refl))
             | exact (ObsInv_obs_none _ HO)
             | exact (ObsInv_cham_none _ HO)
             | eapply ObsInv_load; eassumption ].
Qed.

Lemma F_pend s t th s1 th1 o :
  imove s t th = (s1, th1, o) -> ObsInv s -> NoDup (pending (t_pc th)) -> NoDup (pending (t_pc th1)).
Proof.
  intros H%imove_istep. destruct H; unfold next_cell; try destruct rest; cbn [t_pc pending]; intros [HO _] Hp.
  all: try apply NoDup_nil; try exact Hp; try (inversion Hp; subst; assumption).
  all: rewrite H in HO; cbn [olist] in HO; apply NoDup_app_iff in HO; destruct HO as (HO & _ & _); exact HO.
Qed.

(* a move ends the operation, or stays in it; a delivery that stays goes on with no more probes than before *)
Definition same_op (th th1 : ithread) : Prop :=
  (t_idx th1 = S (t_idx th) /\ t_pc th1 = PIdle) \/
  (t_idx th1 = t_idx th /\
   (deliv (t_pc th) = true ->
    deliv (t_pc th1) = true /\ incl (pending (t_pc th1)) (pending (t_pc th)))).

Lemma F_deliv s t th s1 th1 o : imove s t th = (s1, th1, o) -> same_op th th1.
Proof.
  intros H%imove_istep. unfold same_op. destruct H; unfold next_cell; try destruct rest; cbn [t_pc t_idx].
  all: try (left; split; reflexivity).
  all: right; split; [reflexivity|]; cbn [deliv pending]; intros Hd; try discriminate.
  all: split; [reflexivity|]; intros x Hx; try exact Hx; try (right; exact Hx); try (destruct Hx; fail).
Qed.

Lemma F_deliv_k s t th s1 th1 o k :
  imove s t th = (s1, th1, o) -> in_cb (t_pc th) = Some k -> deliv (t_pc th) = true ->
  NoDup (pending (t_pc th)) -> ~ In k (pending (t_pc th1)).
Proof.
  intros H%imove_istep. destruct H; unfold next_cell; try destruct rest; cbn [t_pc in_cb deliv pending];
    intros Hc Hd Hn; try discriminate; inversion Hc; subst; inversion Hn; subst; auto.
Qed.

Lemma deliv_holds pc : deliv pc = true -> iholds pc LObs = true.
Proof. destruct pc; cbn; auto; discriminate. Qed.

Lemma F_enter s t th s1 th1 o :
  imove s t th = (s1, th1, o) -> deliv (t_pc th1) = true -> deliv (t_pc th) = false ->
  is_pdel (t_pc th) = true /\ s_obs s = Some (pending (t_pc th1)).
Proof.
  intros H%imove_istep. destruct H; unfold next_cell; try destruct rest; cbn [t_pc deliv]; intros Hd1 Hd0;
    try discriminate.
  split; [reflexivity|assumption].
Qed.

Definition PendInv (ths : list ithread) : Prop :=
  forall t th, nth_error ths t = Some th -> NoDup (pending (t_pc th)).

Lemma PendInv_step s ths t th s1 th1 o :
  ObsInv s -> PendInv ths -> nth_error ths t = Some th -> imove s t th = (s1, th1, o) ->
  PendInv (set_th ths t th1).
Proof.
  intros HO HP Ht Hm. unfold PendInv.
  apply (set_th_all (fun _ x => NoDup (pending (t_pc x))) _ _ _ _ Ht); [eapply F_pend; eauto|intros i x _; apply HP].
Qed.

Lemma ObsInv_step s ths t t' th s1 th1 o :
  Core s ths -> ObsInv s -> nth_error ths t = Some th -> imove s t' th = (s1, th1, o) -> ObsInv s1.
Proof.
  intros HC HO Ht Hm. apply (F_obsinv _ _ _ _ _ _ Hm HO). intros k Hk.
  apply (c_fresh _ _ HC _ _ _ Ht), sub_now_in, (c_pcok _ _ HC _ _ Ht). exact Hk.
Qed.

Section Order.
Variable scripts : list (list iop).

Lemma bcasts_silent o : forallb (fun x => negb (is_ev x)) o = true -> bcasts scripts o = [].
Proof.
  induction o as [|x o IH]; cbn; [reflexivity|]. intros H. apply andb_true_iff in H. destruct H as [Hx Ho].
  destruct x; try discriminate; cbn; auto.
Qed.

Lemma move_bcasts s ths t th s1 th1 o :
  Static scripts ths -> nth_error ths t = Some th -> imove s t th = (s1, th1, o) ->
  bcasts scripts o = match t_pc th with PInCb v k _ => [(k, v, (t, t_idx th))] | _ => [] end.
Proof.
  intros HS Ht Hm. destruct (in_cb (t_pc th)) as [k|] eqn:Ec.
  - destruct (F_out _ _ _ _ _ _ _ Hm Ec) as (p & Ho).
    assert (In (TEv k p t (t_idx th)) o) as Hin by (rewrite Ho; cbn; auto).
    destruct (static_ev _ _ _ _ _ _ _ _ _ _ _ _ HS Ht Hm Hin) as (_ & _ & Hc). rewrite Ho.
    destruct Hc as [(rest & v & Hpc & -> & Hi & _)|[(rest & e & Hpc & ->)|(x & Hpc & -> & Hi)]];
      rewrite Hpc; cbn; rewrite ?Hi; reflexivity.
  - rewrite bcasts_silent; [|eapply F_noev; eauto].
    destruct (t_pc th); cbn in Ec; try discriminate; reflexivity.
Qed.

Lemma move_bcasts_cases s ths t th s1 th1 o :
  Static scripts ths -> nth_error ths t = Some th -> imove s t th = (s1, th1, o) ->
  (bcasts scripts o = [] /\ forall v k rest, t_pc th <> PInCb v k rest) \/
  (exists v k rest, t_pc th = PInCb v k rest /\ bcasts scripts o = [(k, v, (t, t_idx th))]).
Proof.
  intros HSt Ht Hm. rewrite (move_bcasts _ _ _ _ _ _ _ HSt Ht Hm).
  destruct (t_pc th); try (left; split; [reflexivity|discriminate]). right. eauto.
Qed.

(* what thread t contributes to the order: no broadcast of an operation it has not reached; the broadcast of the
   operation it is in, once somebody has seen it, is the last of the order and the thread is still delivering it
   (it holds the observer list, so nobody else broadcasts); and no probe still pending has seen it *)
Definition COth (L : list bent) (t : nat) (th : ithread) : Prop :=
  (forall j', In (t, j') (ordL L) -> j' <= t_idx th) /\
  (In (t, t_idx th) (ordL L) -> deliv (t_pc th) = true /\ exists o', ordL L = o' ++ [(t, t_idx th)]) /\
  (forall k', In k' (pending (t_pc th)) -> ~ In (t, t_idx th) (bidsL L k')).

Definition CO (L : list bent) (ths : list ithread) : Prop :=
  (forall k, subseq_bids (bidsL L k) (ordL L) = true) /\ forall t th, nth_error ths t = Some th -> COth L t th.

Lemma COth_silent L t th th1 :
  COth L t th -> same_op th th1 -> COth L t th1.
Proof.
  intros (C1 & C2 & C3) [[Hi Hp]|[Hi Hd]]; unfold COth; rewrite Hi.
  - rewrite Hp. cbn [pending deliv]. split; [intros j' Hj; apply C1 in Hj; lia|].
    split; [intros Hj; apply C1 in Hj; lia|intros k' []].
  - split; [exact C1|]. split.
    + intros Hin. destruct (C2 Hin) as [Hdv Hl]. split; [apply Hd; auto|exact Hl].
    + intros k' Hk' Hin. destruct (deliv (t_pc th)) eqn:Ed.
      * destruct (Hd eq_refl) as [_ Hincl]. eapply C3; eauto.
      * apply bidsL_in in Hin. destruct (C2 Hin) as [Hdv _]. discriminate.
Qed.

Lemma CO_step_silent L s ths t th s1 th1 o :
  CO L ths -> nth_error ths t = Some th -> imove s t th = (s1, th1, o) ->
  CO L (set_th ths t th1).
Proof.
  intros [Ha Hth] Ht Hm. split; [exact Ha|]. apply (set_th_all (COth L) _ _ _ _ Ht); [|intros i x _; apply Hth].
  eapply COth_silent; [eauto|]. eapply F_deliv; eauto.
Qed.

Lemma CO_step_bcast L s ths t th s1 th1 o v k rest :
  Core s ths -> PendInv ths -> CO L ths -> nth_error ths t = Some th ->
  t_pc th = PInCb v k rest -> imove s t th = (s1, th1, o) ->
  CO (L ++ [(k, v, (t, t_idx th))]) (set_th ths t th1).
Proof.
  intros HC HP [Ha Hth] Ht Hpc Hm.
  destruct (Hth t th Ht) as (C1 & C2 & C3). remember (t, t_idx th) as b eqn:Eb.
  assert (Hkp : In k (pending (t_pc th))) by (rewrite Hpc; cbn; auto).
  assert (Hdl : deliv (t_pc th) = true) by (rewrite Hpc; reflexivity).
  split.
  - (* k sees b next: b is new and goes to the end of both lists, or it is the last of the order already and k,
       still pending, has not seen it *)
    intros k'. rewrite bidsL_snoc, ordL_snoc. destruct (Nat.eqb k k') eqn:Ek.
    + apply Nat.eqb_eq in Ek. subst k'. destruct (memb b (map snd L)) eqn:Em.
      * rewrite app_nil_r. apply memb_In in Em. apply ordL_in in Em.
        destruct (C2 Em) as [_ (o' & Ho')]. rewrite Ho'. apply subseq_snoc_both.
        apply subseq_drop_last with (x := b);
          [pose proof (Ha k) as Hk; rewrite Ho' in Hk; exact Hk|]. apply C3. exact Hkp.
      * apply subseq_snoc_both. apply Ha.
    + rewrite app_nil_r. apply subseq_app_r. apply Ha.
  - intros i x Hi. destruct (nth_set_th_inv _ _ _ _ _ _ Ht Hi) as [[-> ->]|[Hni Hi']].
    + assert (HC1 : forall j', In (t, j') (ordL (L ++ [(k, v, b)])) -> j' <= t_idx th).
      { intros j' Hj. apply ordL_snoc_in in Hj. destruct Hj as [Hj|Hj]; [apply C1; auto|].
        rewrite Eb in Hj. inversion Hj. lia. }
      destruct (F_deliv _ _ _ _ _ _ Hm) as [[Hidx Hp1]|[Hidx Hd]]; unfold COth; rewrite Hidx; rewrite <- ?Eb.
      * rewrite Hp1. cbn [pending deliv]. split; [intros j' Hj; apply HC1 in Hj; lia|].
        split; [intros Hj; apply HC1 in Hj; lia|intros k' []].
      * destruct (Hd Hdl) as [Hd1 Hincl]. split; [exact HC1|]. split.
        -- intros _. split; [exact Hd1|]. rewrite ordL_snoc.
           destruct (memb b (map snd L)) eqn:Em.
           ++ rewrite app_nil_r. apply memb_In in Em. apply ordL_in in Em. apply C2 in Em. apply (proj2 Em).
           ++ exists (ordL L). reflexivity.
        -- intros k' Hk' Hin. rewrite bidsL_snoc in Hin.
           assert (~ In k (pending (t_pc th1))) as Hnk.
           { eapply F_deliv_k; eauto. rewrite Hpc. reflexivity. }
           destruct (Nat.eqb k k') eqn:Ek.
           ++ apply Nat.eqb_eq in Ek. subst k'. contradiction.
           ++ rewrite app_nil_r in Hin. eapply C3; [apply Hincl; exact Hk'|exact Hin].
    + destruct (Hth i x Hi') as (D1 & D2 & D3). unfold COth. split; [|split].
      * intros j' Hj. apply ordL_snoc_in in Hj. destruct Hj as [Hj|Hj]; [auto|].
        rewrite Eb in Hj. inversion Hj. congruence.
      * intros Hj. apply ordL_snoc_in in Hj. destruct Hj as [Hj|Hj]; [|rewrite Eb in Hj; inversion Hj; congruence].
        (* another thread in the middle of a delivery would hold the observer list as well *)
        destruct (D2 Hj) as [Hdx _]. exfalso. apply Hni.
        eapply (c_mutex _ _ HC i t x th LObs); eauto using deliv_holds.
      * intros k' Hk' Hin. rewrite bidsL_snoc in Hin. apply in_app_or in Hin.
        destruct Hin as [Hin|Hin]; [eapply D3; eauto|].
        destruct (Nat.eqb k k'); [|destruct Hin]. destruct Hin as [Hin|[]]. rewrite Eb in Hin.
        inversion Hin. congruence.
Qed.

(* everything the common order needs, along a run; L is the list of broadcasts so far *)
Definition Inv7 (L : list bent) (s : ish) (ths : list ithread) : Prop :=
  Core s ths /\ Static scripts ths /\ ObsInv s /\ PendInv ths /\ CO L ths.

Lemma Inv7_move L s ths t th s1 th1 o :
  Inv7 L s ths -> ienabled s ths t = true -> nth_error ths t = Some th -> imove s t th = (s1, th1, o) ->
  Inv7 (L ++ bcasts scripts o) s1 (set_th ths t th1).
Proof.
  intros (HC & HS & HO & HP & HCO) He Ht Hm.
  split; [eapply Core_step; eauto|]. split; [eapply Static_step; eauto|].
  split; [eapply ObsInv_step; eauto|]. split; [eapply PendInv_step; eauto|].
  rewrite (move_bcasts _ _ _ _ _ _ _ HS Ht Hm).
  destruct (t_pc th) eqn:Epc; rewrite ?app_nil_r; try (eapply CO_step_silent; eauto; fail).
  eapply CO_step_bcast; eauto.
Qed.

Lemma bcasts_app a b : bcasts scripts (a ++ b) = bcasts scripts a ++ bcasts scripts b.
Proof. apply flat_map_app. Qed.

Lemma irun_bcasts (I : list bent -> ish -> list ithread -> Prop) :
  (forall L s ths t th s1 th1 o,
      I L s ths -> ienabled s ths t = true -> nth_error ths t = Some th ->
      imove s t th = (s1, th1, o) -> I (L ++ bcasts scripts o) s1 (set_th ths t th1)) ->
  forall sched s ths s' ths' tr,
    I [] s ths -> irun s ths sched = (s', ths', tr) -> I (bcasts scripts tr) s' ths'.
Proof.
  intros Hstep sched s ths s' ths' tr HI Hr.
  refine (irun_trace (fun pre => I (bcasts scripts pre)) _ sched [] s ths s' ths' tr HI Hr).
  intros. rewrite bcasts_app. eauto.
Qed.

Lemma common_order_irun sched s ths s' ths' tr :
  Inv7 [] s ths -> irun s ths sched = (s', ths', tr) -> common_order_ok scripts tr = true.
Proof.
  intros HI Hr. destruct (irun_bcasts Inv7 Inv7_move _ _ _ _ _ _ HI Hr) as (_ & _ & _ & _ & [Ha _]).
  unfold common_order_ok. apply forallb_forall. intros k _. apply Ha.
Qed.

End Order.

Lemma CO_init ths : (forall x, In x ths -> t_pc x = PIdle) -> CO [] ths.
Proof.
  intros Hidle. split; [intros k; reflexivity|]. intros t th Ht.
  assert (t_pc th = PIdle) as Hpc by (apply Hidle; eapply nth_error_In; eauto).
  unfold COth. rewrite Hpc. cbn. split; [intros j' []|]. split; [intros []|intros k' []].
Qed.

Lemma ObsInv_after_setup v0 setup scripts :
  names_ok setup scripts = true -> ObsInv (run_alone 1000 (ish0 v0) (start_thread setup)).
Proof.
  intros Hn. rewrite run_alone_fst. apply (after_setup (fun s _ => ObsInv s) v0 setup scripts); auto.
  - intros; eapply ObsInv_step; eauto.
  - split; [constructor|intros k []].
Qed.

Lemma Inv7_init v0 setup scripts :
  names_ok setup scripts = true ->
  Inv7 scripts [] (run_alone 1000 (ish0 v0) (start_thread setup)) (map start_thread scripts).
Proof.
  intros Hn. split; [apply Core_after_setup; auto|]. split; [apply Static_init|].
  split; [eapply ObsInv_after_setup; eauto|]. split; [|apply CO_init, starts_idle].
  intros t th Ht. rewrite (starts_idle scripts th (nth_error_In _ _ Ht)). constructor.
Qed.

Theorem il_common_order v0 setup scripts sched :
  names_ok setup scripts = true ->
  let '(tr, e, fin) := run_case v0 setup scripts sched in common_order_ok scripts tr = true.
Proof.
  intros Hn. apply run_case_irun. intros s ths tr Er. eapply common_order_irun; [|exact Er].
  apply Inv7_init, Hn.
Qed.
