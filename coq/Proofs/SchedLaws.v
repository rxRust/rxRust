(* C19: a scheduled task runs at most once (or once per period with consecutive sequence
   numbers), never before its delay has elapsed, never after its handle was unsubscribed,
   and a handle reports closed only when the task can no longer act — for every sequence of
   polls, clock advances, cancellations and queries. *)
From RxModel Require Import Sched.
From RxSpec Require Import SchedSpec.
Open Scope N_scope.

Lemma ltb_ge a b : (a <? b) = false <-> b <= a.
Proof. rewrite N.ltb_ge. reflexivity. Qed.

(* the handle reports closed only for a finished task *)
Definition value_inv (t : task) : Prop := t_value t = true -> t_stage t = StFinished.

(* `t0` is a lower bound for every future run of the task *)
Definition not_before (t0 now : N) (t : task) : Prop :=
  match t_stage t with
  | StDelay d => t0 <= now + d
  | StWait due => t0 <= due
  | StBody => t0 <= now
  | StFinished => True
  end.

(* finished or cancelled *)
Definition dead (t : task) : Prop := t_stage t = StFinished \/ t_keep t = false.

Lemma not_before_later t0 now dt t : not_before t0 now t -> not_before t0 (now + dt) t.
Proof. unfold not_before. destruct (t_stage t); lia. Qed.

(* What the proofs about arbitrary tasks know of `poll`: what it never changes, when it asks for
   nothing, and what holds when it asks for a run. *)
Lemma poll_cases now t :
  let '(t1, res) := poll now t in
  t_body t1 = t_body t /\ t_keep t1 = t_keep t /\
  (forall t0, not_before t0 now t -> not_before t0 now t1) /\
  match res with
  | PNone => t_value t1 = t_value t /\ (t_stage t1 = StFinished \/ (t_keep t = true /\ t_stage t <> StFinished))
  | PRun j seq rep =>
      t_keep t = true /\ t_stage t <> StFinished /\ (forall t0, not_before t0 now t -> t0 <= now) /\
      match t_body t with
      | BOnce j' => j = j' /\ seq = 0%nat /\ rep = false /\ t_stage t1 = StFinished /\ t_value t1 = true
      | BRepeat j' _ due seq' =>
          j = j' /\ seq = seq' /\ rep = true /\ due <= now /\ t_stage t1 = StBody /\ t_value t1 = t_value t
      end
  end.
Proof.
  destruct t as [st b k v]. unfold poll, poll_body, not_before. cbn.
  destruct st, k, b; cbn;
    repeat match goal with |- context [?a <? ?c] => destruct (N.ltb_spec a c); cbn end;
    repeat split; auto; try discriminate; try (intros; lia);
    solve [left; reflexivity | right; split; [reflexivity|discriminate]].
Qed.

(* the run clause of poll_cases, by the kind of the body *)
Lemma poll_ran_once now t b j seq rep :
  t_body t = BOnce b -> snd (poll now t) = PRun j seq rep ->
  j = b /\ seq = 0%nat /\ rep = false /\ t_stage (fst (poll now t)) = StFinished /\ t_value (fst (poll now t)) = true.
Proof.
  intros Hb. pose proof (poll_cases now t) as P. destruct (poll now t) as [t1 res]. cbn [fst snd]. intros ->.
  rewrite Hb in P. apply P.
Qed.

Lemma poll_ran_repeat now t b p due k j seq rep :
  t_body t = BRepeat b p due k -> snd (poll now t) = PRun j seq rep ->
  j = b /\ seq = k /\ rep = true /\ due <= now /\ t_stage (fst (poll now t)) = StBody /\
  t_value (fst (poll now t)) = t_value t.
Proof.
  intros Hb. pose proof (poll_cases now t) as P. destruct (poll now t) as [t1 res]. cbn [fst snd]. intros ->.
  rewrite Hb in P. apply P.
Qed.

Lemma poll_dead now t : dead t -> snd (poll now t) = PNone /\ dead (fst (poll now t)).
Proof.
  intros D. pose proof (poll_cases now t) as P. destruct (poll now t) as [t1 res]. cbn [fst snd].
  destruct P as (_ & Hk & _ & P). destruct res as [|j seq rep].
  - split; [reflexivity|]. destruct P as (_ & [F|(K & NF)]); [left; exact F|].
    right. destruct D as [F|K']; [contradiction|congruence].
  - destruct P as (K & NF & _). destruct D as [F|K']; [contradiction|congruence].
Qed.

Lemma poll_value_inv now t : value_inv t -> value_inv (fst (poll now t)).
Proof.
  intros V. pose proof (poll_cases now t) as P.
  pose proof (poll_ran_once now t) as Once. pose proof (poll_ran_repeat now t) as Rep.
  destruct (poll now t) as [t1 res]. cbn [fst snd] in *.
  destruct P as (_ & _ & _ & P). intros V1. destruct res as [|j seq rep].
  - destruct P as (Ev & [F|(_ & NF)]); [exact F|]. rewrite Ev in V1. destruct (NF (V V1)).
  - destruct P as (_ & NF & _). destruct (t_body t) as [b|b p due k] eqn:Eb.
    + apply (Once b j seq rep eq_refl eq_refl).
    + destruct (Rep b p due k j seq rep eq_refl eq_refl) as (_ & _ & _ & _ & _ & Ev).
      rewrite Ev in V1. destruct (NF (V V1)).
Qed.

Lemma after_tick_value_inv now t c : value_inv t -> value_inv (after_tick now t c).
Proof.
  unfold value_inv, after_tick. intros H. destruct (t_body t); [exact H|]. destruct c; cbn; auto.
Qed.

Lemma after_tick_not_before t0 now t c : not_before t0 now t -> not_before t0 now (after_tick now t c).
Proof. unfold after_tick. intros H. destruct (t_body t); [exact H|]. destruct c; [exact H|exact I]. Qed.

Lemma dead_quiet cont : forall ls now t, dead t -> no_run (trun cont now t ls) = true.
Proof.
  induction ls as [|l r IH]; intros now t D; [reflexivity|].
  destruct l; cbn [trun].
  - destruct (poll_dead (now + dt) t D) as [E D1].
    destruct (poll (now + dt) t) as [t1 res]. cbn [fst snd] in *. subst res. apply IH, D1.
  - apply (IH _ (cancel t)). right. reflexivity.
  - apply IH, D.
Qed.

Lemma no_run_count o : no_run o = true -> ran_count o = 0%nat.
Proof.
  unfold ran_count. induction o as [|x o IH]; [reflexivity|]. cbn. intros H. apply andb_prop in H.
  destruct x; [easy|apply IH, H..].
Qed.

Theorem quiet_after_cancel_or_closed cont : forall ls now t,
  value_inv t -> quiet_after_cancel (trun cont now t ls) = true.
Proof.
  induction ls as [|l r IH]; intros now t V; [reflexivity|].
  destruct l; cbn [trun].
  - pose proof (poll_value_inv (now + dt) t V) as V1.
    destruct (poll (now + dt) t) as [t1 res]. cbn [fst] in V1.
    destruct res as [|j seq [|]]; cbn [quiet_after_cancel]; apply IH; [|apply after_tick_value_inv|]; exact V1.
  - apply dead_quiet. right. reflexivity.
  - cbn [quiet_after_cancel]. unfold handle_closed. destruct (t_value t) eqn:Ev.
    + apply dead_quiet. left. apply V, Ev.
    + apply IH, V.
Qed.

Theorem once_at_most_once cont j : forall ls now t,
  t_body t = BOnce j -> (ran_count (trun cont now t ls) <= 1)%nat.
Proof.
  induction ls as [|l r IH]; intros now t Hb; [cbn; lia|].
  destruct l; cbn [trun].
  - pose proof (poll_cases (now + dt) t) as P. pose proof (poll_ran_once (now + dt) t j) as Ran.
    destruct (poll (now + dt) t) as [t1 res]. cbn [fst snd] in Ran.
    destruct P as (Hb1 & _). rewrite Hb in Hb1. destruct res as [|j' seq rep]; [apply IH, Hb1|].
    destruct (Ran _ _ _ Hb eq_refl) as (_ & _ & -> & F & _).
    (* it ran: finished, so nothing more is counted *)
    pose proof (no_run_count _ (dead_quiet cont r (now + dt) t1 (or_introl F))) as Z.
    unfold ran_count in *. cbn [filter length]. rewrite Z. lia.
  - apply (IH (now + dt) (cancel t)). exact Hb.
  - apply IH, Hb.
Qed.

Theorem never_early cont : forall ls now t t0,
  not_before t0 now t -> runs_from t0 (trun cont now t ls) = true.
Proof.
  induction ls as [|l r IH]; intros now t t0 H; [reflexivity|].
  destruct l; cbn [trun]; apply (not_before_later _ _ dt) in H.
  - pose proof (poll_cases (now + dt) t) as P. destruct (poll (now + dt) t) as [t1 res].
    destruct P as (_ & _ & H1 & P). specialize (H1 t0 H).
    destruct res as [|j seq rep]; [apply IH, H1|]. destruct P as (_ & _ & Hle & _).
    destruct rep; cbn [runs_from forallb]; rewrite (proj2 (N.leb_le _ _) (Hle t0 H)); apply IH.
    + apply after_tick_not_before, H1.
    + exact H1.
  - apply (IH _ (cancel t)), H.
  - apply IH, H.
Qed.

(* the statement for a freshly scheduled task: no run before schedule time + delay *)
Corollary never_before_delay cont ls now b d :
  runs_from (now + d) (trun cont now (spawn b (Some d)) ls) = true.
Proof. apply never_early. unfold not_before, spawn. cbn. lia. Qed.

Theorem repeat_ticks cont j p : forall ls now t due seq,
  t_body t = BRepeat j p due seq ->
  ticks_ok cont p seq due (trun cont now t ls) = true.
Proof.
  induction ls as [|l r IH]; intros now t due seq Hb; [reflexivity|].
  destruct l; cbn [trun].
  - pose proof (poll_cases (now + dt) t) as P. pose proof (poll_ran_repeat (now + dt) t j p due seq) as Ran.
    destruct (poll (now + dt) t) as [t1 res]. cbn [fst snd] in Ran.
    destruct P as (Hb1 & _). rewrite Hb in Hb1. destruct res as [|j' seq' rep]; [apply IH, Hb1|].
    destruct (Ran _ _ _ Hb eq_refl) as (_ & -> & -> & Hd & _).
    cbn [ticks_ok]. rewrite Nat.eqb_refl, (proj2 (N.leb_le _ _) Hd). cbn [andb].
    unfold after_tick. rewrite Hb1. destruct (cont seq).
    + apply IH. reflexivity.
    + apply dead_quiet. left. reflexivity.
  - apply (IH (now + dt) (cancel t)). exact Hb.
  - apply IH, Hb.
Qed.

(* a freshly scheduled repeating task: first tick at least one period after scheduling *)
Corollary repeat_from_spawn cont ls now j p delay :
  ticks_ok cont p 0 (now + p) (trun cont now (spawn (repeat_new now j p) delay) ls) = true.
Proof. apply (repeat_ticks cont j p ls now _ (now + p) 0%nat). reflexivity. Qed.
