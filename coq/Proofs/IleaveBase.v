(* Ileave.v (lock-level model of SubjectThreads / BehaviorSubject): basic facts, the moves as a
   relation (istep) and the effect of one move (the frame lemmas F_x), invariants along a schedule
   (irun_trace), and the properties that hold of EVERY configuration and every script without
   any hypothesis: deadlock freedom, absence of panics, values. *)
From RxSpec Require Export IleaveSpec.
Local Open Scope nat_scope.

Lemma in_tl {A} (x : A) l : In x (tl l) -> In x l.
Proof. destruct l; cbn; auto. Qed.

Lemma imem_In x l : imem x l = true <-> In x l.
Proof.
  induction l as [|y l IH]; cbn; [split; [discriminate|tauto]|].
  rewrite orb_true_iff, IH, Nat.eqb_eq. split; intros [H|H]; auto.
Qed.

Lemma imem_false x l : imem x l = false <-> ~ In x l.
Proof. rewrite <- imem_In. symmetry. apply not_true_iff_false. Qed.

Lemma forallb_false_ex {A} (f : A -> bool) l : forallb f l = false -> exists x, In x l /\ f x = false.
Proof.
  induction l as [|y l IH]; cbn; [discriminate|]. intros H.
  destruct (f y) eqn:E.
  - cbn in H. destruct (IH H) as (x & Hx & Hf). exists x; auto.
  - exists y; auto.
Qed.

Lemma NoDup_app_iff {A} (a b : list A) :
  NoDup (a ++ b) <-> NoDup a /\ NoDup b /\ (forall x, In x a -> In x b -> False).
Proof.
  induction a as [|x a IH]; cbn.
  - split; [intros H; repeat split; auto; constructor|tauto].
  - rewrite !NoDup_cons_iff, IH, in_app_iff. split.
    + intros (Hn & Ha & Hb & Hab). repeat split; auto. intros y [<-|Hy]; eauto.
    + intros ((Hn & Ha) & Hb & Hab). repeat split; eauto. intros [H|H]; eauto.
Qed.

Lemma In_remove1_nodup x k l : NoDup l -> In x (remove1 k l) -> In x l /\ x <> k.
Proof.
  induction l as [|y l IH]; cbn; intros Hd H; [tauto|]. inversion Hd as [|y' l' Hn Hd']; subst.
  destruct (Nat.eqb k y) eqn:E.
  - apply Nat.eqb_eq in E. subst y. split; auto. intros ->. tauto.
  - apply Nat.eqb_neq in E. destruct H as [H|H]; [subst; split; auto|].
    destruct (IH Hd' H); auto.
Qed.

Lemma NoDup_remove1 k l : NoDup l -> NoDup (remove1 k l).
Proof.
  induction l as [|y l IH]; cbn; intros H; [constructor|]. inversion H as [|y' l' Hn Hd]; subst.
  destruct (Nat.eqb k y); auto. constructor; auto. intros Hy. apply Hn, (In_remove1_nodup _ _ _ Hd Hy).
Qed.

Lemma nth_set_th l i x j :
  nth_error (set_th l i x) j =
  if Nat.eqb i j then match nth_error l i with Some _ => Some x | None => None end else nth_error l j.
Proof.
  revert i j. induction l as [|y l IH]; intros [|i] [|j]; cbn; auto.
  destruct (Nat.eqb i j); reflexivity.
Qed.

Lemma nth_set_th_same l i x y : nth_error l i = Some y -> nth_error (set_th l i x) i = Some x.
Proof. intros H. rewrite nth_set_th, Nat.eqb_refl, H. reflexivity. Qed.

Lemma nth_set_th_other l i x j : i <> j -> nth_error (set_th l i x) j = nth_error l j.
Proof. intros H. rewrite nth_set_th. apply Nat.eqb_neq in H. rewrite H. reflexivity. Qed.

Lemma nth_set_th_inv l t th th1 i x :
  nth_error l t = Some th -> nth_error (set_th l t th1) i = Some x ->
  (i = t /\ x = th1) \/ (i <> t /\ nth_error l i = Some x).
Proof.
  intros Ht H. rewrite nth_set_th in H. destruct (Nat.eqb t i) eqn:E.
  - apply Nat.eqb_eq in E. subst i. rewrite Ht in H. left. split; congruence.
  - apply Nat.eqb_neq in E. right. split; auto.
Qed.

Lemma set_th_all (P : nat -> ithread -> Prop) l t th th1 :
  nth_error l t = Some th -> P t th1 -> (forall i x, i <> t -> nth_error l i = Some x -> P i x) ->
  forall i x, nth_error (set_th l t th1) i = Some x -> P i x.
Proof. intros Ht H1 H2 i x Hi. destruct (nth_set_th_inv _ _ _ _ _ _ Ht Hi) as [[-> ->]|[Hni Hi']]; auto. Qed.

Lemma nth_map_start scripts t th :
  nth_error (map start_thread scripts) t = Some th ->
  exists sc, nth_error scripts t = Some sc /\ th = start_thread sc.
Proof.
  rewrite nth_error_map. destruct (nth_error scripts t) as [sc|]; cbn; [|discriminate].
  intros H; inversion H. eauto.
Qed.

Lemma ipick_cases s ths t s1 ths1 o :
  ipick s ths t = (s1, ths1, o) ->
  (s1 = s /\ ths1 = ths /\ o = []) \/
  (exists th th1, ienabled s ths t = true /\ nth_error ths t = Some th /\
                  imove s t th = (s1, th1, o) /\ ths1 = set_th ths t th1).
Proof.
  unfold ipick. destruct (ienabled s ths t) eqn:E.
  - destruct (nth_error ths t) as [th|] eqn:Et.
    + destruct (imove s t th) as [[s' th'] o'] eqn:Em. intros H. inversion H; subst.
      right. exists th, th'. auto.
    + intros H; inversion H; auto.
  - intros H; inversion H; auto.
Qed.

(* a check of a trace that carries an accumulator: None when an event fails it *)
Section Walk.
  Context {A : Type} (f : A -> itr -> option A).
  Fixpoint walks (a : A) (tr : list itr) : option A :=
    match tr with
    | [] => Some a
    | x :: r => match f a x with Some a' => walks a' r | None => None end
    end.
  Lemma walks_app a o r :
    walks a (o ++ r) = match walks a o with Some a' => walks a' r | None => None end.
  Proof.
    revert a. induction o as [|x o IH]; intros a; cbn; [reflexivity|].
    destruct (f a x); auto.
  Qed.
End Walk.

Lemma irun_trace (I : list itr -> ish -> list ithread -> Prop) :
  (forall pre s ths t th s1 th1 o,
      I pre s ths -> ienabled s ths t = true -> nth_error ths t = Some th ->
      imove s t th = (s1, th1, o) -> I (pre ++ o) s1 (set_th ths t th1)) ->
  forall sched pre s ths s' ths' tr,
    I pre s ths -> irun s ths sched = (s', ths', tr) -> I (pre ++ tr) s' ths'.
Proof.
  intros Hstep sched. induction sched as [|t r IH]; intros pre s ths s' ths' tr HI Hr; cbn in Hr.
  - inversion Hr; subst. rewrite app_nil_r. exact HI.
  - destruct (ipick s ths t) as [[s1 ths1] o1] eqn:Ep. destruct (irun s1 ths1 r) as [[s2 ths2] o2] eqn:Er.
    inversion Hr; subst. rewrite app_assoc. eapply IH; [|exact Er].
    destruct (ipick_cases _ _ _ _ _ _ Ep) as [(-> & -> & ->)|(th & th1 & He & Hn & Hm & ->)].
    + rewrite app_nil_r. exact HI.
    + eapply Hstep; eauto.
Qed.

Lemma irun_walks {A} (f : A -> itr -> option A) (I : A -> ish -> list ithread -> Prop) :
  (forall a s ths t th s1 th1 o,
      I a s ths -> ienabled s ths t = true -> nth_error ths t = Some th ->
      imove s t th = (s1, th1, o) ->
      exists a', walks f a o = Some a' /\ I a' s1 (set_th ths t th1)) ->
  forall sched a s ths s' ths' tr,
    I a s ths -> irun s ths sched = (s', ths', tr) ->
    exists a', walks f a tr = Some a' /\ I a' s' ths'.
Proof.
  intros Hstep sched a s ths s' ths' tr HI Hr.
  apply (irun_trace (fun pre s ths => exists a', walks f a pre = Some a' /\ I a' s ths)) with (pre := []) (3 := Hr);
    [|exists a; auto].
  intros pre s0 ths0 t th s1 th1 o (a0 & Hw & HI0) He Hn Hm.
  destruct (Hstep _ _ _ _ _ _ _ _ HI0 He Hn Hm) as (a1 & Hw1 & HI1). exists a1. rewrite walks_app, Hw. auto.
Qed.

Lemma irun_forallb (c : itr -> bool) (I : ish -> list ithread -> Prop) :
  (forall s ths t th s1 th1 o,
      I s ths -> ienabled s ths t = true -> nth_error ths t = Some th -> imove s t th = (s1, th1, o) ->
      (forall x, In x o -> c x = true) /\ I s1 (set_th ths t th1)) ->
  forall sched s ths s' ths' tr, I s ths -> irun s ths sched = (s', ths', tr) -> forallb c tr = true.
Proof.
  intros Hstep sched s ths s' ths' tr HI Hr.
  apply (irun_trace (fun pre s ths => forallb c pre = true /\ I s ths)) with (pre := []) (3 := Hr); [|auto].
  intros pre s0 ths0 t th s1 th1 o [Hp HI0] He Hn Hm. destruct (Hstep _ _ _ _ _ _ _ HI0 He Hn Hm) as [Hc HI1].
  split; [|exact HI1]. rewrite forallb_app, Hp. apply forallb_forall, Hc.
Qed.

Lemma known_kill s k' k : cell_known (kill_cell s k') k = cell_known s k.
Proof.
  unfold cell_known, kill_cell. cbn. induction (s_cells s) as [|c l IH]; cbn; [reflexivity|].
  rewrite IH. destruct (Nat.eqb (fst c) k'); reflexivity.
Qed.

Lemma alive_kill s k' k : cell_alive (kill_cell s k') k = negb (Nat.eqb k' k) && cell_alive s k.
Proof.
  unfold cell_alive, kill_cell. cbn. induction (s_cells s) as [|c l IH]; cbn.
  - rewrite andb_false_r. reflexivity.
  - rewrite IH. destruct (Nat.eqb (fst c) k') eqn:E1; cbn.
    + apply Nat.eqb_eq in E1. rewrite E1.
      destruct (Nat.eqb k' k), (snd c), (existsb (fun c0 => Nat.eqb (fst c0) k && snd c0) l); reflexivity.
    + destruct (Nat.eqb k' k) eqn:E2; cbn; [|reflexivity].
      apply Nat.eqb_eq in E2. subst k. rewrite E1. reflexivity.
Qed.

Lemma known_sub s k' k : cell_known (subscribe_cell s k') k = cell_known s k || Nat.eqb k' k.
Proof.
  unfold cell_known, subscribe_cell. destruct (s_cham s); cbn; rewrite existsb_app; cbn;
    rewrite orb_false_r; reflexivity.
Qed.

Lemma alive_sub s k' k :
  cell_alive (subscribe_cell s k') k =
  cell_alive s k || (Nat.eqb k' k && match s_cham s with Some _ => true | None => false end).
Proof.
  unfold cell_alive, subscribe_cell. destruct (s_cham s); cbn; rewrite existsb_app; cbn;
    rewrite ?orb_false_r, ?andb_true_r, ?andb_false_r; reflexivity.
Qed.

Lemma alive_known s k : cell_alive s k = true -> cell_known s k = true.
Proof.
  unfold cell_alive, cell_known. induction (s_cells s) as [|c l IH]; cbn; [discriminate|].
  destruct (Nat.eqb (fst c) k); cbn; auto.
Qed.

Lemma known_set_obs s o k : cell_known (set_obs s o) k = cell_known s k. Proof. reflexivity. Qed.
Lemma known_set_cham s o k : cell_known (set_cham s o) k = cell_known s k. Proof. reflexivity. Qed.
Lemma known_set_val s o k : cell_known (set_val s o) k = cell_known s k. Proof. reflexivity. Qed.
Lemma known_set_busy s o k : cell_known (set_busy s o) k = cell_known s k. Proof. reflexivity. Qed.
Lemma alive_set_obs s o k : cell_alive (set_obs s o) k = cell_alive s k. Proof. reflexivity. Qed.
Lemma alive_set_cham s o k : cell_alive (set_cham s o) k = cell_alive s k. Proof. reflexivity. Qed.
Lemma alive_set_val s o k : cell_alive (set_val s o) k = cell_alive s k. Proof. reflexivity. Qed.
Lemma alive_set_busy s o k : cell_alive (set_busy s o) k = cell_alive s k. Proof. reflexivity. Qed.

#[export] Hint Rewrite known_kill alive_kill known_sub alive_sub alive_set_obs alive_set_cham alive_set_val
  alive_set_busy : il.

(* the probe whose callback the thread is parked inside *)
Definition in_cb (pc : ipc) : option nat :=
  match pc with PInCb _ k _ | PInCbT _ k _ | PInCbB k _ => Some k | _ => None end.

(* the probe whose cell the next move of the thread pushes *)
Definition sub_now (th : ithread) : option nat :=
  match t_pc th, t_ops th with
  | PIdle, ISub k :: _ => Some k
  | PSubCham k, _ => Some k
  | _, _ => None
  end.

Definition pay_op (p : payload) : iop := match p with YItem v => INext v | YTerm e => ITerm e end.

(* the operation a parked thread is inside is the head of its script *)
Definition pc_op (pc : ipc) : option iop :=
  match pc with
  | PIdle => None
  | PLoad p | PDeliver p => Some (pay_op p)
  | PCell v _ | PInCb v _ _ => Some (INext v)
  | PFin e _ | PClosed e _ | PTake e _ | PInCbT e _ _ => Some (ITerm e)
  | PInCbB k _ | PSubCham k => Some (IBSub k)
  | PSUnsub => Some ISUnsub
  end.

Definition pc_ok (th : ithread) : Prop :=
  match pc_op (t_pc th) with Some o => exists r, t_ops th = o :: r | None => True end.

(* what a delivery goes on with after a cell: the next cell, or the end of the operation *)
Definition next_cell (mk : list nat -> ipc) (rest : list nat) (ops : list iop) (j : nat) : ithread :=
  match rest with [] => Build_ithread PIdle (tl ops) (S j) | _ => Build_ithread (mk rest) ops j end.

Definition ovl (s : ish) (k : nat) : list itr := if imem k (s_busy s) then [TOverlap k] else [].

(* imove as a relation: one constructor per transition, the threads spelt out so that pc_ok, sub_now, in_cb,
   ineed compute on them, the new state written with the setters.  The one-move lemmas F_x below are case
   analyses of it (imove_istep). *)
Inductive istep (s : ish) (t : nat) : ithread -> ish -> ithread -> list itr -> Prop :=
| st_end j : istep s t (Build_ithread PIdle [] j) s (Build_ithread PIdle [] j) []
| st_next v o r j : s_obs s = Some o ->
    istep s t (Build_ithread PIdle (INext v :: r) j) s (Build_ithread (PLoad (YItem v)) (INext v :: r) j) [TAcq t LObs]
| st_next_gone v r j : s_obs s = None ->
    istep s t (Build_ithread PIdle (INext v :: r) j) s (Build_ithread (PDeliver (YItem v)) (INext v :: r) j) [TAcq t LObs]
| st_termop e o r j : s_obs s = Some o ->
    istep s t (Build_ithread PIdle (ITerm e :: r) j) s (Build_ithread (PLoad (YTerm e)) (ITerm e :: r) j) [TAcq t LObs]
| st_termop_gone e r j : s_obs s = None ->
    istep s t (Build_ithread PIdle (ITerm e :: r) j) s (Build_ithread (PDeliver (YTerm e)) (ITerm e :: r) j) [TAcq t LObs]
| st_sub k r j :
    istep s t (Build_ithread PIdle (ISub k :: r) j) (subscribe_cell s k) (Build_ithread PIdle r (S j)) [TAcq t LCham]
| st_sunsub r j :
    istep s t (Build_ithread PIdle (ISUnsub :: r) j) (set_obs s None) (Build_ithread PSUnsub (ISUnsub :: r) j) [TAcq t LObs]
| st_unsub k r j : cell_known s k = true ->
    istep s t (Build_ithread PIdle (IUnsub k :: r) j) (kill_cell s k) (Build_ithread PIdle r (S j))
      [TAcq t (LCell k); TUn k t j]
| st_unsub_unknown k r j : cell_known s k = false ->
    istep s t (Build_ithread PIdle (IUnsub k :: r) j) s (Build_ithread PIdle r (S j)) [TUn k t j]
| st_bnext v r j :
    istep s t (Build_ithread PIdle (IBNext v :: r) j) (set_val s v) (Build_ithread PIdle (INext v :: r) j) [TAcq t LVal]
| st_bsub k r j :
    istep s t (Build_ithread PIdle (IBSub k :: r) j) (set_busy s (k :: s_busy s))
      (Build_ithread (PInCbB k (s_val s)) (IBSub k :: r) j) (TAcq t LVal :: ovl s k)
| st_peek r j :
    istep s t (Build_ithread PIdle (IBPeek :: r) j) s (Build_ithread PIdle r (S j)) [TAcq t LVal; TPk (s_val s) t j]
| st_load p o c ops j : s_obs s = Some o -> s_cham s = Some c ->
    istep s t (Build_ithread (PLoad p) ops j) (set_cham (set_obs s (Some (o ++ c))) (Some []))
      (Build_ithread (PDeliver p) ops j) [TAcq t LCham]
| st_load_panic p o ops j : s_obs s = Some o -> s_cham s = None ->
    istep s t (Build_ithread (PLoad p) ops j) s (Build_ithread PIdle [] j) [TAcq t LCham; TPanic t]
| st_load_gone p ops j : s_obs s = None ->
    istep s t (Build_ithread (PLoad p) ops j) s (Build_ithread (PDeliver p) ops j) [TAcq t LCham]
| st_item v k r ops j : s_obs s = Some (k :: r) ->
    istep s t (Build_ithread (PDeliver (YItem v)) ops j) s (Build_ithread (PCell v (k :: r)) ops j) [TAcq t LObs]
| st_item_nobody v ops j : s_obs s = Some [] \/ s_obs s = None ->
    istep s t (Build_ithread (PDeliver (YItem v)) ops j) s (Build_ithread PIdle (tl ops) (S j)) [TAcq t LObs]
| st_term e k r ops j : s_obs s = Some (k :: r) ->
    istep s t (Build_ithread (PDeliver (YTerm e)) ops j) (set_obs s None) (Build_ithread (PFin e (k :: r)) ops j)
      [TAcq t LObs]
| st_term_nobody e ops j : s_obs s = Some [] ->
    istep s t (Build_ithread (PDeliver (YTerm e)) ops j) (set_obs s None) (Build_ithread PIdle (tl ops) (S j))
      [TAcq t LObs]
| st_term_gone e ops j : s_obs s = None ->
    istep s t (Build_ithread (PDeliver (YTerm e)) ops j) s (Build_ithread PIdle (tl ops) (S j)) [TAcq t LObs]
| st_cell v k rest ops j : cell_alive s k = true ->
    istep s t (Build_ithread (PCell v (k :: rest)) ops j) (set_busy s (k :: s_busy s))
      (Build_ithread (PInCb v k rest) ops j) (TAcq t (LCell k) :: ovl s k)
| st_cell_dead v k rest ops j : cell_alive s k = false ->
    istep s t (Build_ithread (PCell v (k :: rest)) ops j) s (next_cell (PCell v) rest ops j) [TAcq t (LCell k)]
| st_incb v k rest ops j :
    istep s t (Build_ithread (PInCb v k rest) ops j) (set_busy s (remove1 k (s_busy s)))
      (next_cell (PCell v) rest ops j) [TEv k (YItem v) t j]
| st_fin e k rest ops j : cell_alive s k = true ->
    istep s t (Build_ithread (PFin e (k :: rest)) ops j) s (Build_ithread (PClosed e (k :: rest)) ops j)
      [TAcq t (LCell k)]
| st_fin_dead e k rest ops j : cell_alive s k = false ->
    istep s t (Build_ithread (PFin e (k :: rest)) ops j) s (next_cell (PFin e) rest ops j) [TAcq t (LCell k)]
| st_closed e k rest ops j : cell_alive s k = true ->
    istep s t (Build_ithread (PClosed e (k :: rest)) ops j) s (Build_ithread (PTake e (k :: rest)) ops j)
      [TAcq t (LCell k)]
| st_closed_dead e k rest ops j : cell_alive s k = false ->
    istep s t (Build_ithread (PClosed e (k :: rest)) ops j) s (next_cell (PFin e) rest ops j) [TAcq t (LCell k)]
| st_take e k rest ops j : cell_alive s k = true ->
    istep s t (Build_ithread (PTake e (k :: rest)) ops j) (kill_cell (set_busy s (k :: s_busy s)) k)
      (Build_ithread (PInCbT e k rest) ops j) (TAcq t (LCell k) :: ovl s k)
| st_take_dead e k rest ops j : cell_alive s k = false ->
    istep s t (Build_ithread (PTake e (k :: rest)) ops j) s (next_cell (PFin e) rest ops j) [TAcq t (LCell k)]
| st_incbt e k rest ops j :
    istep s t (Build_ithread (PInCbT e k rest) ops j) (set_busy s (remove1 k (s_busy s)))
      (next_cell (PFin e) rest ops j) [TEv k (YTerm e) t j]
| st_incbb k x ops j :
    istep s t (Build_ithread (PInCbB k x) ops j) (set_busy s (remove1 k (s_busy s)))
      (Build_ithread (PSubCham k) ops j) [TEv k (YItem x) t j]
| st_subcham k ops j :
    istep s t (Build_ithread (PSubCham k) ops j) (subscribe_cell s k) (Build_ithread PIdle (tl ops) (S j))
      [TAcq t LCham]
| st_sunsub_cham ops j :
    istep s t (Build_ithread PSUnsub ops j) (set_cham s None) (Build_ithread PIdle (tl ops) (S j)) [TAcq t LCham]
| st_cell_nil v ops j : istep s t (Build_ithread (PCell v []) ops j) s (Build_ithread PIdle (tl ops) (S j)) []
| st_fin_nil e ops j : istep s t (Build_ithread (PFin e []) ops j) s (Build_ithread PIdle (tl ops) (S j)) []
| st_closed_nil e ops j : istep s t (Build_ithread (PClosed e []) ops j) s (Build_ithread PIdle (tl ops) (S j)) []
| st_take_nil e ops j : istep s t (Build_ithread (PTake e []) ops j) s (Build_ithread PIdle (tl ops) (S j)) [].

Lemma imove_istep_all s t th : let '(s1, th1, o) := imove s t th in istep s t th s1 th1 o.
Proof.
  destruct th as [pc ops j]. unfold imove, enter_cb, leave_cb. cbn [t_pc t_ops t_idx at_pc op_done].
  destruct pc as [ | p | [v|e] | v [|k rest] | | e [|k rest] | e [|k rest] | e [|k rest] | | | | ];
    try (constructor; fail).
  - destruct ops as [|[v|e|k|k|v|k| |] r]; try (constructor; fail).
    + destruct (s_obs s) eqn:E; econstructor; exact E.
    + destruct (s_obs s) eqn:E; econstructor; exact E.
    + destruct (cell_known s k) eqn:E; constructor; exact E.
  - destruct (s_obs s) as [o|] eqn:Eo; [destruct (s_cham s) as [c|] eqn:Ec|]; econstructor; eassumption.
  - destruct (s_obs s) as [[|k r]|] eqn:Eo; constructor; auto.
  - destruct (s_obs s) as [[|k r]|] eqn:Eo; constructor; exact Eo.
  - destruct (cell_alive s k) eqn:E; constructor; exact E.
  - destruct (cell_alive s k) eqn:E; constructor; exact E.
  - destruct (cell_alive s k) eqn:E; constructor; exact E.
  - destruct (cell_alive s k) eqn:E; [apply (st_take s t e k rest ops j E)|constructor; exact E].
Qed.

Lemma imove_istep s t th s1 th1 o : imove s t th = (s1, th1, o) -> istep s t th s1 th1 o.
Proof. intros H. pose proof (imove_istep_all s t th) as Hs. rewrite H in Hs. exact Hs. Qed.

(* the thread has run its whole script *)
Definition fin_th (th : ithread) : bool := match t_pc th, t_ops th with PIdle, [] => true | _, _ => false end.

Lemma fin_th_inv th : fin_th th = true -> t_pc th = PIdle /\ t_ops th = [].
Proof. unfold fin_th. destruct (t_pc th); try discriminate. destruct (t_ops th); [auto|discriminate]. Qed.

Lemma finished_th ths t th :
  ifinished ths = true -> nth_error ths t = Some th -> t_pc th = PIdle /\ t_ops th = [].
Proof.
  unfold ifinished. rewrite forallb_forall. intros Hf Ht. exact (fin_th_inv th (Hf th (nth_error_In _ _ Ht))).
Qed.

Lemma ineed_none s th : ineed s th = None -> fin_th th = true.
Proof.
  destruct th as [pc ops idx]. unfold ineed, fin_th. cbn.
  destruct pc as [ | p | p | v rest | v k rest | e rest | e rest | e rest | e k rest | k x | k | ];
    try discriminate; try (destruct rest; discriminate).
  destruct ops as [|[v|e|k|k|v|k| |] r]; try discriminate; auto. destruct (cell_known s k); discriminate.
Qed.

Lemma cell_holder_need s th k : iholds (t_pc th) (LCell k) = true -> ineed s th = Some None.
Proof.
  destruct th as [pc ops idx]. unfold ineed. cbn. destruct pc; cbn; try discriminate; auto.
Qed.

Lemma holder_need s th l :
  iholds (t_pc th) l = true ->
  ineed s th = Some None \/ ineed s th = Some (Some LCham) \/ exists k, ineed s th = Some (Some (LCell k)).
Proof.
  destruct th as [pc ops idx]. unfold ineed. cbn.
  destruct pc as [ | p | p | v rest | v k rest | e rest | e rest | e rest | e k rest | k x | k | ];
    destruct l; cbn; try discriminate; intros _; auto; destruct rest; eauto.
Qed.

Lemma iheld_ex ths l :
  iheld ths l = true -> exists j thj, nth_error ths j = Some thj /\ iholds (t_pc thj) l = true.
Proof.
  unfold iheld. rewrite existsb_exists. intros (th & Hin & Hh).
  destruct (In_nth_error _ _ Hin) as (j & Hj). eauto.
Qed.

Lemma iheld_false ths l :
  iheld ths l = false -> forall j thj, nth_error ths j = Some thj -> iholds (t_pc thj) l = false.
Proof.
  intros H j thj Hj. destruct (iholds (t_pc thj) l) eqn:E; [|reflexivity].
  assert (iheld ths l = true) as H1; [|congruence].
  unfold iheld. rewrite existsb_exists. exists thj. split; auto. eapply nth_error_In; eauto.
Qed.

Lemma enabled_of s ths t th :
  nth_error ths t = Some th ->
  (ineed s th = Some None \/ exists l, ineed s th = Some (Some l) /\ iheld ths l = false) ->
  ienabled s ths t = true.
Proof.
  intros Ht H. unfold ienabled. rewrite Ht. destruct H as [->|(l & -> & ->)]; reflexivity.
Qed.

Lemma enabled_free s ths t th l j thj :
  ienabled s ths t = true -> nth_error ths t = Some th -> ineed s th = Some (Some l) ->
  nth_error ths j = Some thj -> iholds (t_pc thj) l = false.
Proof.
  unfold ienabled. intros He Ht Hn. rewrite Ht, Hn in He. apply negb_true_iff in He. exact (iheld_false _ _ He j thj).
Qed.

Lemma some_enabled s ths : ifinished ths = false -> exists t, ienabled s ths t = true.
Proof.
  intros H. unfold ifinished in H. apply forallb_false_ex in H. destruct H as (th & Hin & Hf).
  destruct (In_nth_error _ _ Hin) as (i & Hi).
  destruct (ineed s th) as [[l|]|] eqn:En.
  2:{ exists i. eapply enabled_of; eauto. }
  2:{ apply ineed_none in En. unfold fin_th in En. congruence. }
  destruct (iheld ths l) eqn:Eh.
  2:{ exists i. eapply enabled_of; eauto. }
  apply iheld_ex in Eh. destruct Eh as (j & thj & Hj & Hh).
  destruct (holder_need s thj l Hh) as [H1|[H1|(k & H1)]].
  - exists j. eapply enabled_of; eauto.
  - exists j. eapply enabled_of; eauto. right. exists LCham. split; auto.
    destruct (iheld ths LCham) eqn:Ec; [|reflexivity]. apply iheld_ex in Ec.
    destruct Ec as (m & thm & _ & Hm). destruct (t_pc thm); discriminate.
  - destruct (iheld ths (LCell k)) eqn:Ec.
    + apply iheld_ex in Ec. destruct Ec as (m & thm & Hm & Hhm). exists m.
      eapply enabled_of; eauto. left. eapply cell_holder_need; eauto.
    + exists j. eapply enabled_of; eauto.
Qed.

(* C10: no deadlock, of ANY configuration: whoever holds the lock somebody waits for can itself move, or
   waits for a lock whose holder can *)
Theorem no_stuck s ths : istuck s ths = false.
Proof.
  unfold istuck. destruct (ifinished ths) eqn:F; [reflexivity|]. cbn.
  destruct (some_enabled s ths F) as (t & Ht).
  apply not_true_iff_false. intros H. rewrite forallb_forall in H.
  assert (In t (seq 0 (length ths))) as Hin.
  { apply in_seq. split; [lia|]. cbn. apply nth_error_Some. unfold ienabled in Ht.
    destruct (nth_error ths t); [discriminate|discriminate]. }
  apply H in Hin. rewrite Ht in Hin. discriminate.
Qed.

Lemma finished_end s ths :
  (if ifinished ths then EFinished else if istuck s ths then EDeadlock else EShort) = EFinished -> ifinished ths = true.
Proof. destruct (ifinished ths); [reflexivity|]. destruct (istuck s ths); discriminate. Qed.

Lemma run_case_irun v0 setup scripts sched (P : list itr -> iend -> Z -> Prop) :
  (forall s ths tr,
      irun (run_alone 1000 (ish0 v0) (start_thread setup)) (map start_thread scripts) sched = (s, ths, tr) ->
      P tr (if ifinished ths then EFinished else if istuck s ths then EDeadlock else EShort) (s_val s)) ->
  let '(tr, e, fin) := run_case v0 setup scripts sched in P tr e fin.
Proof.
  intros H. unfold run_case. cbv zeta. destruct (irun _ _ sched) as [[s ths] tr]. apply H. reflexivity.
Qed.

Theorem il_no_deadlock v0 setup scripts sched :
  let '(tr, e, fin) := run_case v0 setup scripts sched in e <> EDeadlock.
Proof.
  apply run_case_irun. intros s ths tr _. rewrite no_stuck. destruct (ifinished ths); discriminate.
Qed.

(* takes boolean hypotheses apart (&&, ||, negb, Nat.eqb); for F_alive *)
Ltac bsimp := repeat match goal with
  | H : _ && _ = true |- _ => apply andb_true_iff in H; destruct H
  | H : _ || _ = true |- _ => apply orb_true_iff in H; destruct H
  | H : _ || _ = false |- _ => apply orb_false_iff in H; destruct H
  | H : negb _ = true |- _ => apply negb_true_iff in H
  | H : negb _ = false |- _ => apply negb_false_iff in H
  | H : Nat.eqb _ _ = true |- _ => apply Nat.eqb_eq in H; try subst
  end.

Lemma F_holds s t th s1 th1 o l :
  imove s t th = (s1, th1, o) -> iholds (t_pc th1) l = true ->
  iholds (t_pc th) l = true \/ ineed s th = Some (Some l).
Proof.
  intros H%imove_istep. destruct H; unfold next_cell, ineed; try destruct rest; cbn [t_pc t_ops iholds];
    intros Hh; try discriminate Hh; destruct l; try discriminate Hh; auto.
  all: apply Nat.eqb_eq in Hh; subst; auto.
Qed.

Lemma F_tid s t t' th : fst (imove s t th) = fst (imove s t' th).
Proof.
  destruct th as [pc ops idx]. unfold imove, enter_cb, leave_cb. cbn [t_pc t_ops t_idx].
  destruct pc as [ | | [] | v [|k rest] | | e [|k rest] | e [|k rest] | e [|k rest] | | | | ]; try reflexivity.
  all: try (destruct (cell_alive s k); reflexivity).
  - destruct ops as [|[] r]; try reflexivity. destruct (cell_known s _); reflexivity.
  - destruct (s_obs s), (s_cham s); reflexivity.
  - destruct (s_obs s) as [[|]|]; reflexivity.
  - destruct (s_obs s) as [[|]|]; reflexivity.
Qed.

Lemma F_known s t th s1 th1 o k :
  imove s t th = (s1, th1, o) ->
  cell_known s1 k = cell_known s k || match sub_now th with Some k' => Nat.eqb k' k | None => false end.
Proof.
  intros H%imove_istep. destruct H; unfold sub_now; cbn [t_pc t_ops];
    rewrite ?known_kill, ?known_sub, ?orb_false_r; reflexivity.
Qed.

Lemma F_alive s t th s1 th1 o k :
  imove s t th = (s1, th1, o) ->
  (cell_alive s1 k = true -> cell_alive s k = true \/ sub_now th = Some k) /\
  (cell_alive s k = true -> cell_alive s1 k = false -> ineed s th = Some (Some (LCell k))).
Proof.
  intros H%imove_istep. destruct H; unfold sub_now, ineed; cbn [t_pc t_ops]; rewrite ?alive_kill, ?alive_sub;
    (split; [intros Ha; bsimp; auto|intros Ha Hd; try destruct (eq_true_false_abs _ Ha Hd)]).
  all: rewrite ?alive_set_busy in Hd; rewrite Ha, ?andb_true_r in Hd; bsimp; try discriminate; rewrite ?H;
    reflexivity.
Qed.

Lemma F_ops_sub s t th s1 th1 o x :
  imove s t th = (s1, th1, o) -> In x (t_ops th1) -> In x (t_ops th) \/ exists v, x = INext v.
Proof.
  intros H%imove_istep. destruct H; unfold next_cell; try destruct rest; cbn [t_ops]; intros Hx.
  all: try (left; exact Hx); try (left; right; exact Hx); try (left; apply in_tl; exact Hx).
  - destruct Hx as [<-|Hx]; [right; eexists; reflexivity|left; right; exact Hx].
  - destruct Hx.
Qed.

(* P holds of every operation the threads are still to run.  A move only drops operations, or turns IBNext v
   into INext v: if P holds of every plain next, it is kept *)
Definition ops_all (P : nat -> iop -> Prop) (ths : list ithread) : Prop :=
  forall i th x, nth_error ths i = Some th -> In x (t_ops th) -> P i x.

Lemma ops_all_step (P : nat -> iop -> Prop) s ths t t' th s1 th1 o :
  (forall i v, P i (INext v)) -> ops_all P ths -> nth_error ths t = Some th -> imove s t' th = (s1, th1, o) ->
  ops_all P (set_th ths t th1).
Proof.
  intros HP HA Ht Hm i y x Hi Hx. destruct (nth_set_th_inv _ _ _ _ _ _ Ht Hi) as [[-> ->]|[Hni Hi']]; [|eauto].
  destruct (F_ops_sub _ _ _ _ _ _ _ Hm Hx) as [H|(v & ->)]; [eauto|apply HP].
Qed.

Lemma ops_all_start (P : nat -> iop -> Prop) scripts :
  (forall i sc x, nth_error scripts i = Some sc -> In x sc -> P i x) -> ops_all P (map start_thread scripts).
Proof. intros H i th x Hi Hx. apply nth_map_start in Hi. destruct Hi as (sc & Hsc & ->). eauto. Qed.

Lemma sub_now_in th k : sub_now th = Some k -> pc_ok th -> In k (subscribed_in (t_ops th)).
Proof.
  destruct th as [pc ops idx]. unfold sub_now, pc_ok. cbn [t_pc t_ops].
  destruct pc; cbn [pc_op]; try discriminate.
  - destruct ops as [|[] r]; try discriminate. intros H _. inversion H; subst. cbn; auto.
  - intros H (r & ->). inversion H; subst. cbn; auto.
Qed.

Lemma F_incb s t th s1 th1 o k :
  imove s t th = (s1, th1, o) -> in_cb (t_pc th1) = Some k ->
  in_cb (t_pc th) = None /\
  ((cell_alive s k = true /\ iholds (t_pc th) LObs = true /\ ineed s th = Some (Some (LCell k))) \/
   (t_pc th = PIdle /\ exists r, t_ops th = IBSub k :: r)).
Proof.
  intros H%imove_istep. destruct H; unfold next_cell; try destruct rest; cbn [t_pc in_cb]; intros Hc;
    try discriminate; inversion Hc; subst.
  all: split; [reflexivity|].
  all: first [ left; repeat split; auto; fail | right; split; [reflexivity|eexists; reflexivity] ].
Qed.

Lemma busy_sub s k : s_busy (subscribe_cell s k) = s_busy s.
Proof. unfold subscribe_cell. destruct (s_cham s); reflexivity. Qed.

Lemma obs_sub s k : s_obs (subscribe_cell s k) = s_obs s.
Proof. unfold subscribe_cell. destruct (s_cham s); reflexivity. Qed.

Lemma val_sub s k : s_val (subscribe_cell s k) = s_val s.
Proof. unfold subscribe_cell. destruct (s_cham s); reflexivity. Qed.

Lemma cham_sub s k :
  s_cham (subscribe_cell s k) = match s_cham s with Some c => Some (c ++ [k]) | None => None end.
Proof. unfold subscribe_cell. destruct (s_cham s) eqn:E; [reflexivity|exact E]. Qed.

Lemma F_busy s t th s1 th1 o :
  imove s t th = (s1, th1, o) ->
  s_busy s1 = match in_cb (t_pc th) with
              | Some k => remove1 k (s_busy s)
              | None => match in_cb (t_pc th1) with Some k => k :: s_busy s | None => s_busy s end
              end.
Proof.
  intros H%imove_istep. destruct H; unfold next_cell; try destruct rest; cbn [t_pc in_cb]; rewrite ?busy_sub;
    reflexivity.
Qed.

(* what the pc of a parked thread says about the shared state: inside probe k's next the cell of k is alive
   (the thread holds its lock), inside its terminal the cell has been taken, between the two locks of the
   subject's unsubscribe the observer list is gone *)
Definition local (s : ish) (th : ithread) : Prop :=
  match t_pc th with
  | PInCb _ k _ => cell_alive s k = true
  | PInCbT _ k _ => cell_known s k = true /\ cell_alive s k = false
  | PSUnsub => s_obs s = None
  | _ => True
  end.

Lemma F_local_self s t th s1 th1 o : imove s t th = (s1, th1, o) -> local s1 th1.
Proof.
  intros H%imove_istep. destruct H; unfold local, next_cell; try destruct rest; cbn [t_pc]; auto.
  all: rewrite known_kill, alive_kill, Nat.eqb_refl; split; [apply alive_known; assumption|reflexivity].
Qed.

Lemma F_pcok s t th s1 th1 o : imove s t th = (s1, th1, o) -> pc_ok th -> pc_ok th1.
Proof.
  intros H%imove_istep. destruct H; unfold pc_ok, next_cell; try destruct rest;
    cbn [t_pc t_ops pc_op pay_op]; intros Hp; auto; try (eexists; reflexivity).
Qed.

(* the chamber goes only after the observer list: load() never finds a list without a chamber *)
Definition chamP (s : ish) : Prop := s_cham s = None -> s_obs s = None.
(* a thread between the two locks of the subject's unsubscribe has taken the list *)
Definition unsP (s : ish) (th : ithread) : Prop := t_pc th = PSUnsub -> s_obs s = None.

Lemma local_unsP s th : local s th -> unsP s th.
Proof. unfold local, unsP. intros H Hpc. rewrite Hpc in H. exact H. Qed.

(* the probes a script is still to subscribe: the move drops the one it subscribes, if any *)
Lemma F_subs s t th s1 th1 o :
  imove s t th = (s1, th1, o) -> pc_ok th -> chamP s ->
  subscribed_in (t_ops th) =
  match sub_now th with Some k => [k] | None => [] end ++ subscribed_in (t_ops th1).
Proof.
  intros H%imove_istep. destruct H; unfold sub_now, pc_ok, next_cell; try destruct rest;
    cbn [t_pc t_ops pc_op pay_op]; intros Hp Hc; try reflexivity.
  all: try (destruct Hp as (r0 & ->); reflexivity).
  (* the panic case: chamP excludes it *)
  apply Hc in H0. congruence.
Qed.

(* how one move advances the script: BehaviorSubject::next stores its value and goes on as a plain
   next of the same value; a move inside an operation leaves script and value cell alone; the last
   move of an operation drops it from the script *)
Lemma F_script s t th s1 th1 o :
  imove s t th = (s1, th1, o) -> pc_ok th -> chamP s ->
  (exists v r, t_pc th = PIdle /\ t_ops th = IBNext v :: r /\ t_ops th1 = INext v :: r /\ s_val s1 = v /\
               t_idx th1 = t_idx th /\ t_pc th1 = PIdle) \/
  (s_val s1 = s_val s /\ t_ops th1 = t_ops th /\ t_idx th1 = t_idx th) \/
  (s_val s1 = s_val s /\ t_idx th1 = S (t_idx th) /\ t_pc th1 = PIdle /\
   exists o0, t_ops th = o0 :: t_ops th1 /\ forall v, o0 <> IBNext v).
Proof.
  intros H%imove_istep. destruct H; unfold pc_ok, next_cell; try destruct rest;
    cbn [t_pc t_ops t_idx pc_op pay_op]; intros Hp Hc.
  all: try (destruct Hp as (r0 & ->)); cbn [tl]; rewrite ?val_sub.
  all: first [ left; eexists; eexists; repeat split; reflexivity
             | right; left; repeat split; reflexivity
             | right; right; repeat split; try reflexivity; eexists; split; [reflexivity|discriminate]
             | idtac ].
  (* the panic case: chamP excludes it *)
  rewrite (Hc H0) in H. discriminate.
Qed.

Definition is_pdel (pc : ipc) : bool := match pc with PDeliver _ => true | _ => false end.

(* what one move does to the observer list and the chamber: nothing; a cell is pushed; load()
   appends the chamber; a terminal or the subject's unsubscribe takes the list (under LObs); the
   subject's unsubscribe drops the chamber *)
Lemma F_obs s t th s1 th1 o :
  imove s t th = (s1, th1, o) ->
  (sub_now th = None /\ s_obs s1 = s_obs s /\ s_cham s1 = s_cham s) \/
  (exists k, sub_now th = Some k /\ s1 = subscribe_cell s k) \/
  (exists p ob c, t_pc th = PLoad p /\ t_pc th1 = PDeliver p /\ s_obs s = Some ob /\ s_cham s = Some c /\
                  s_obs s1 = Some (ob ++ c) /\ s_cham s1 = Some []) \/
  (s_obs s1 = None /\ s_cham s1 = s_cham s /\ ineed s th = Some (Some LObs) /\
   ((exists e, t_pc th = PDeliver (YTerm e)) \/ (t_pc th = PIdle /\ exists r, t_ops th = ISUnsub :: r))) \/
  (t_pc th = PSUnsub /\ s_obs s1 = s_obs s /\ s_cham s1 = None).
Proof.
  intros H%imove_istep. destruct H; unfold next_cell, sub_now, ineed; try destruct rest; cbn [t_pc t_ops].
  all: try (left; repeat split; reflexivity).
  all: try (right; left; eexists; split; reflexivity).
  all: try (right; right; left; do 3 eexists; repeat split; first [eassumption|reflexivity]).
  all: try (right; right; right; left; repeat split; eauto; fail).
  all: try (right; right; right; right; repeat split; reflexivity).
Qed.

Lemma F_obs_lose s t th s1 th1 o :
  imove s t th = (s1, th1, o) -> s_obs s <> None -> s_obs s1 = None -> ineed s th = Some (Some LObs).
Proof.
  intros Hm Hs H1.
  destruct (F_obs _ _ _ _ _ _ Hm) as [(_ & E & _)|[(k & _ & ->)|[(p & ob & c & _ & _ & _ & _ & E & _)|[(_ & _ & Hn & _)|(_ & E & _)]]]];
    rewrite ?obs_sub in *; congruence.
Qed.

Lemma F_obs_none s t th s1 th1 o : imove s t th = (s1, th1, o) -> s_obs s = None -> s_obs s1 = None.
Proof.
  intros H%imove_istep. destruct H; intros Hp; rewrite ?obs_sub; cbn; try assumption; try reflexivity; try congruence.
Qed.

Lemma F_cham s t th s1 th1 o :
  imove s t th = (s1, th1, o) -> chamP s -> unsP s th -> chamP s1.
Proof.
  intros H%imove_istep. unfold chamP, unsP. destruct H; cbn [t_pc]; intros Hp Hl; try exact Hp; try (intros _; reflexivity).
  all: try (cbn; intros _; congruence).
  all: try (intros _; apply Hl; reflexivity).
  all: rewrite ?cham_sub, ?obs_sub; cbn; destruct (s_cham s) eqn:E; try discriminate; intros _; exact (Hp eq_refl).
Qed.

Lemma F_event s t th s1 th1 o x :
  imove s t th = (s1, th1, o) -> In x o ->
  match x with
  | TEv k p t' j =>
      t' = t /\ j = t_idx th /\
      ((exists rest v, t_pc th = PInCb v k rest /\ p = YItem v) \/
       (exists rest e, t_pc th = PInCbT e k rest /\ p = YTerm e) \/
       (exists x, t_pc th = PInCbB k x /\ p = YItem x))
  | TUn k _ _ =>
      t_pc th = PIdle /\ (exists r, t_ops th = IUnsub k :: r) /\
      (cell_known s k = true -> cell_alive s1 k = false /\ ineed s th = Some (Some (LCell k)))
  | TOverlap k => in_cb (t_pc th1) = Some k /\ imem k (s_busy s) = true
  | TPanic _ => s_cham s = None /\ s_obs s <> None
  | _ => True
  end.
Proof.
  intros H%imove_istep. destruct H; unfold ovl; cbn [t_pc t_ops t_idx in_cb];
    try destruct (imem _ (s_busy s)) eqn:Eb; intros Hi.
  all: cbn in Hi; repeat (destruct Hi as [<-|Hi]); try contradiction; try exact I.
  all: try (split; [reflexivity|split; [reflexivity|]]; eauto 6; fail).
  all: try (split; [reflexivity|assumption]).
  - split; [reflexivity|]. split; [eexists; reflexivity|]. intros _. unfold ineed. cbn [t_pc t_ops].
    rewrite H, alive_kill, Nat.eqb_refl. auto.
  - split; [reflexivity|]. split; [eexists; reflexivity|congruence].
  - split; [assumption|congruence].
Qed.

Lemma F_out s t th s1 th1 o k :
  imove s t th = (s1, th1, o) -> in_cb (t_pc th) = Some k -> exists p, o = [TEv k p t (t_idx th)].
Proof.
  intros H%imove_istep. destruct H; cbn [t_pc t_idx in_cb]; intros Hi; try discriminate; inversion Hi; subst;
    eexists; reflexivity.
Qed.

Definition is_ev (x : itr) : bool := match x with TEv _ _ _ _ => true | _ => false end.

Lemma F_noev s t th s1 th1 o :
  imove s t th = (s1, th1, o) -> in_cb (t_pc th) = None -> forallb (fun x => negb (is_ev x)) o = true.
Proof.
  intros H%imove_istep. destruct H; unfold ovl; cbn [t_pc in_cb]; intros Hi; try discriminate;
    try destruct (imem k (s_busy s)); reflexivity.
Qed.

Lemma walks_silent {A} (f : A -> itr -> option A) (a : A) o :
  (forall a x, is_ev x = false -> f a x = Some a) ->
  forallb (fun x => negb (is_ev x)) o = true -> walks f a o = Some a.
Proof.
  intros Hf. induction o as [|x o IH]; cbn; [reflexivity|]. intros H.
  apply andb_true_iff in H. destruct H as [Hx Ho]. apply negb_true_iff in Hx.
  rewrite (Hf a x Hx). auto.
Qed.

(* the thread's position in its script: the operation it is in is script[t_idx], the rest of the script follows; a
   BehaviorSubject next runs on as a plain next of the same value *)
Definition link (script : list iop) (th : ithread) : Prop :=
  match t_ops th with
  | [] => True
  | o :: r => exists o0, nth_error script (t_idx th) = Some o0 /\ skipn (S (t_idx th)) script = r /\
                         (o0 = o \/ exists v, o0 = IBNext v /\ o = INext v)
  end.

Lemma skipn_cons {A} n (l : list A) x r : skipn n l = x :: r -> nth_error l n = Some x /\ skipn (S n) l = r.
Proof.
  revert l. induction n as [|n IH]; intros [|y l]; cbn; try discriminate.
  - intros H; inversion H; auto.
  - intros H. apply IH in H. exact H.
Qed.

Lemma link_done script th : link script th -> link script (op_done th).
Proof.
  unfold link. cbn [op_done t_ops t_idx]. destruct (t_ops th) as [|o r]; cbn [tl]; [auto|].
  intros (o0 & _ & Hs & _). destruct r as [|o' r']; [exact I|].
  apply skipn_cons in Hs. destruct Hs as [H1 H2]. exists o'. auto.
Qed.

Lemma F_link s t th s1 th1 o script : imove s t th = (s1, th1, o) -> link script th -> link script th1.
Proof.
  intros H%imove_istep Hl. assert (Hd := link_done _ _ Hl).
  destruct H; unfold next_cell; try destruct rest; try exact Hl; try exact Hd; try exact I.
  unfold link in *. cbn [t_ops t_idx] in *. destruct Hl as (o0 & H1 & H2 & [H3|(v' & H3 & H4)]).
  - exists o0. subst o0. repeat split; auto. right. eexists; split; reflexivity.
  - discriminate.
Qed.

(* run_alone, giving the thread as well: whether the setup script came to its end can be read off it *)
Fixpoint run_alone_th (fuel : nat) (s : ish) (th : ithread) : ish * ithread :=
  match fuel with
  | O => (s, th)
  | S f =>
      match ineed s th with
      | None => (s, th)
      | Some _ => let '(s1, th1, _) := imove s 9 th in run_alone_th f s1 th1
      end
  end.

Lemma run_alone_fst fuel s th : run_alone fuel s th = fst (run_alone_th fuel s th).
Proof.
  revert s th. induction fuel as [|f IH]; intros s th; cbn; [reflexivity|].
  destruct (ineed s th) as [g|]; [|reflexivity]. destruct (imove s 9 th) as [[s1 th1] o]. apply IH.
Qed.

Lemma run_alone_th_inv (J : ish -> ithread -> Prop) :
  (forall s th s1 th1 o, J s th -> ineed s th <> None -> imove s 9 th = (s1, th1, o) -> J s1 th1) ->
  forall fuel s th, J s th -> J (fst (run_alone_th fuel s th)) (snd (run_alone_th fuel s th)).
Proof.
  intros Hstep fuel. induction fuel as [|f IH]; intros s th HJ; cbn; [exact HJ|].
  destruct (ineed s th) as [g|] eqn:En; [|exact HJ].
  destruct (imove s 9 th) as [[s1 th1] o] eqn:Em. apply IH. eapply Hstep; eauto. congruence.
Qed.

(* what rules the panic of load() out, for any scripts *)
Definition PanInv (s : ish) (ths : list ithread) : Prop :=
  chamP s /\ forall i th, nth_error ths i = Some th -> unsP s th.

Lemma unsP_self s t th s1 th1 o : imove s t th = (s1, th1, o) -> unsP s1 th1.
Proof.
  intros H. apply local_unsP. eapply F_local_self; eauto.
Qed.

Lemma PanInv_step s ths t t' th s1 th1 o :
  PanInv s ths -> nth_error ths t = Some th -> imove s t' th = (s1, th1, o) ->
  PanInv s1 (set_th ths t th1).
Proof.
  intros [Hc Hu] Ht Hm. split.
  - eapply F_cham; eauto.
  - apply (set_th_all (fun _ => unsP s1) _ _ _ _ Ht); [eapply unsP_self; eauto|].
    intros i x _ Hi Hpc. eapply F_obs_none; eauto. eapply Hu; eauto.
Qed.

Lemma no_panic_irun sched s ths s' ths' tr :
  PanInv s ths -> irun s ths sched = (s', ths', tr) -> no_panic tr = true.
Proof.
  apply (irun_forallb _ PanInv). intros s0 ths0 t th s1 th1 o HP He Hn Hm. split; [|eapply PanInv_step; eauto].
  intros [] Hx; try reflexivity. destruct (F_event _ _ _ _ _ _ _ Hm Hx) as [Hc Ho]. destruct Ho. apply HP, Hc.
Qed.

Lemma PanInv_init v0 setup scripts :
  PanInv (run_alone 1000 (ish0 v0) (start_thread setup)) (map start_thread scripts).
Proof.
  split; [|intros i th Hi Hpc; apply nth_map_start in Hi; destruct Hi as (sc & _ & ->); discriminate].
  rewrite run_alone_fst. apply (run_alone_th_inv (fun s th => chamP s /\ unsP s th)).
  - intros s th s1 th1 o [Hc Hu] _ Hm. split; [eapply F_cham|eapply unsP_self]; eauto.
  - split; intros H; discriminate.
Qed.

(* C10: no call panics; no hypothesis on the scripts *)
Theorem il_no_panic v0 setup scripts sched :
  let '(tr, e, fin) := run_case v0 setup scripts sched in no_panic tr = true.
Proof.
  apply run_case_irun. intros s ths tr Er. eapply no_panic_irun; [apply PanInv_init|exact Er].
Qed.

(* every thread is where its pc says in the script it was started with *)
Definition Static (scripts : list (list iop)) (ths : list ithread) : Prop :=
  forall t th, nth_error ths t = Some th ->
               pc_ok th /\ exists sc, nth_error scripts t = Some sc /\ link sc th.

Lemma Static_step scripts s ths t t' th s1 th1 o :
  Static scripts ths -> nth_error ths t = Some th -> imove s t' th = (s1, th1, o) ->
  Static scripts (set_th ths t th1).
Proof.
  intros HS Ht Hm. destruct (HS _ _ Ht) as (Hp & sc & Hsc & Hl).
  unfold Static. apply (set_th_all (fun i x => pc_ok x /\ exists sc, nth_error scripts i = Some sc /\ link sc x) _ _ _ _ Ht).
  - split; [eapply F_pcok; eauto|]. exists sc. split; auto. eapply F_link; eauto.
  - intros i x _. apply HS.
Qed.

Lemma Static_init scripts : Static scripts (map start_thread scripts).
Proof.
  intros t th Hi. apply nth_map_start in Hi. destruct Hi as (sc & Hsc & ->). split.
  - exact I.
  - exists sc. split; auto. unfold link. destruct sc as [|o r]; [exact I|]. exists o. cbn. auto.
Qed.

Lemma static_ev scripts s ths t th s1 th1 o k p t' j :
  Static scripts ths -> nth_error ths t = Some th -> imove s t th = (s1, th1, o) ->
  In (TEv k p t' j) o ->
  t' = t /\ j = t_idx th /\
  ((exists rest v, t_pc th = PInCb v k rest /\ p = YItem v /\ is_initial scripts (t, j) = false /\
                   (op_at scripts (t, j) = Some (INext v) \/ op_at scripts (t, j) = Some (IBNext v))) \/
   (exists rest e, t_pc th = PInCbT e k rest /\ p = YTerm e) \/
   (exists x, t_pc th = PInCbB k x /\ p = YItem x /\ is_initial scripts (t, j) = true)).
Proof.
  intros HS Ht Hm Hi. destruct (F_event _ _ _ _ _ _ _ Hm Hi) as (-> & -> & Hc).
  split; [reflexivity|split; [reflexivity|]].
  destruct (HS _ _ Ht) as (Hp & sc & Hsc & Hl).
  unfold pc_ok in Hp. unfold link in Hl. unfold is_initial, op_at. cbn [fst snd]. rewrite Hsc.
  destruct Hc as [(rest & v & Hpc & ->)|[(rest & e & Hpc & ->)|(x & Hpc & ->)]]; rewrite Hpc in Hp; cbn in Hp;
    destruct Hp as (r & Hr); rewrite Hr in Hl; destruct Hl as (o0 & Hn & _ & Ho).
  - left. exists rest, v. rewrite Hn. destruct Ho as [->|(v' & -> & Hv)]; [auto|].
    inversion Hv; subst. auto.
  - right. left. eauto.
  - right. right. exists x. rewrite Hn. destruct Ho as [->|(v' & -> & Hv)]; [auto|discriminate].
Qed.

Lemma forallb_flat_map {A B} (f : B -> bool) (g : A -> list B) l :
  forallb f (flat_map g l) = forallb (fun x => forallb f (g x)) l.
Proof. induction l as [|x l IH]; cbn; [reflexivity|]. rewrite forallb_app, IH. reflexivity. Qed.

Lemma values_irun scripts sched s ths s' ths' tr :
  Static scripts ths -> irun s ths sched = (s', ths', tr) -> values_ok scripts tr = true.
Proof.
  unfold values_ok, bcasts. rewrite forallb_flat_map. apply (irun_forallb _ (fun _ => Static scripts)).
  intros s0 ths0 t th s1 th1 o HP He Hn Hm. split; [|eapply Static_step; eauto].
  intros [ | k [v|e] t' j | | | | ] Hx; try reflexivity.
  destruct (static_ev _ _ _ _ _ _ _ _ _ _ _ _ HP Hn Hm Hx) as (-> & -> & Hc).
  destruct Hc as [(rest & v' & _ & Hv & -> & Ho)|[(rest & e & _ & Hv)|(x & _ & _ & ->)]]; try discriminate;
    [|reflexivity].
  inversion Hv; subst. cbn. destruct Ho as [-> | ->]; rewrite Z.eqb_refl; reflexivity.
Qed.

(* C06: nothing is invented; no hypothesis on the scripts *)
Theorem il_values v0 setup scripts sched :
  let '(tr, e, fin) := run_case v0 setup scripts sched in values_ok scripts tr = true.
Proof.
  apply run_case_irun. intros s ths tr Er. eapply values_irun; [|exact Er]. apply Static_init.
Qed.
