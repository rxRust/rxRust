(* The timed system, for every label sequence.  The time sources meet their trace predicates (C08) by one
   simulation over the labels that do not run their task.  C02 and C17: a reachable state is live (every task
   that can reach the subscriber is covered by the subscription) or silent; unsubscribe() takes the first to
   the second, a closed subscription is already silent, and silence is preserved.
   Every theorem assumes `not_raw`: the raw part of the model (TRaw and its labels, jobs and outputs) and its
   predicates raw_ok and closed_sound_ok are judged on the implementation's traces only. *)
From RxModel Require Import Timed.
From RxSpec Require Import TimedSpec.
From RxProofs Require Import ValEq.
From RxProofs Require SchedLaws.
Open Scope N_scope.

Lemma nth_error_mid {A} (done : list A) l r : nth_error (done ++ l :: r) (length done) = Some l.
Proof. induction done; cbn; auto. Qed.

Lemma nth_error_single {A} (x : A) t : nth_error [x] t = match t with O => Some x | S _ => None end.
Proof. destruct t as [|[|t]]; reflexivity. Qed.

Lemma nth_error_app_last {A} (l : list A) x : nth_error (l ++ [x]) (length l) = Some x.
Proof. apply nth_error_mid. Qed.

Lemma nth_error_snoc {A} (l : list A) x i y :
  nth_error (l ++ [x]) i = Some y -> ((i < length l)%nat /\ nth_error l i = Some y) \/ (i = length l /\ y = x).
Proof.
  intros H. destruct (Nat.lt_ge_cases i (length l)) as [Hlt|Hge].
  - left. split; [exact Hlt|]. rewrite nth_error_app1 in H by exact Hlt. exact H.
  - right. assert (i < length (l ++ [x]))%nat by (apply nth_error_Some; congruence).
    rewrite app_length in H0. cbn in H0. assert (i = length l) by lia. subst i.
    rewrite nth_error_app_last in H. split; congruence.
Qed.

Lemma nth_error_set_nth_eq {A} (l : list A) i x y : nth_error l i = Some y -> nth_error (set_nth l i x) i = Some x.
Proof. revert i. induction l as [|a l IH]; intros [|i] H; cbn in *; try discriminate; auto. Qed.

Lemma nth_error_set_nth_neq {A} (l : list A) i k x : i <> k -> nth_error (set_nth l i x) k = nth_error l k.
Proof. revert i k. induction l as [|a l IH]; intros [|i] [|k] H; cbn; auto; try congruence. Qed.

Lemma nth_error_set_nth {A} (l : list A) i k x y :
  nth_error (set_nth l i x) k = Some y -> (k = i /\ y = x) \/ (k <> i /\ nth_error l k = Some y).
Proof.
  intros H. destruct (Nat.eq_dec i k) as [<-|Hne].
  - left. destruct (nth_error l i) as [z|] eqn:E.
    + rewrite (nth_error_set_nth_eq l i x z E) in H. split; congruence.
    + exfalso. revert i H E. induction l as [|a l IH]; intros [|i]; cbn; try discriminate. apply IH.
  - right. rewrite nth_error_set_nth_neq in H by exact Hne. auto.
Qed.

Lemma set_nth_length {A} (l : list A) i x : length (set_nth l i x) = length l.
Proof. revert i. induction l as [|a l IH]; intros [|i]; cbn; auto. Qed.

Lemma set_nth_idem {A} (l : list A) i x y : set_nth (set_nth l i x) i y = set_nth l i y.
Proof. revert i. induction l as [|a l IH]; intros [|i]; cbn; auto. f_equal. apply IH. Qed.

Lemma set_nth_same {A} (l : list A) i x : nth_error l i = Some x -> set_nth l i x = l.
Proof. revert i. induction l as [|a l IH]; intros [|i] H; cbn in *; try discriminate; auto; [congruence|f_equal; auto]. Qed.

Lemma walk_app {St} (step : St -> tout -> option St) s a b :
  walk step s (a ++ b) = match walk step s a with Some s' => walk step s' b | None => None end.
Proof.
  revert s. induction a as [|x a IH]; intros s; [reflexivity|].
  cbn. destruct (step s x); [apply IH|reflexivity].
Qed.


(* The induction over the labels of a run: `R done pre s w` relates the labels processed, the output so far,
   the system and the walking state.  run_sim, CollectLaws.run_sim_trace and BufferLaws.run_sim_state (which
   starts `pre` at []) are its forms for relations that read less. *)
Lemma run_sim_gen {St} (step : list tlab -> St -> tout -> option St) (o : top)
      (R : list tlab -> list tout -> tsys -> St -> Prop) :
  (forall ls_full done l r pre s w, ls_full = done ++ l :: r -> R done pre s w ->
      exists w', walk (step ls_full) w (TMark (length done) :: snd (tstep o s l)) = Some w' /\
                 R (done ++ [l]) (pre ++ TMark (length done) :: snd (tstep o s l)) (fst (tstep o s l)) w') ->
  forall r done pre s w ls_full,
    ls_full = done ++ r -> R done pre s w ->
    exists w' s', walk (step ls_full) w (trun_sys o s (length done) r) = Some w' /\
                  R (done ++ r) (pre ++ trun_sys o s (length done) r) s' w'.
Proof.
  intros H r. induction r as [|l r IH]; intros done pre s w ls_full E HR.
  - exists w, s. rewrite !app_nil_r. split; [reflexivity|exact HR].
  - cbn [trun_sys]. destruct (H ls_full done l r pre s w E HR) as (w1 & Hw & HR1).
    destruct (tstep o s l) as [s1 out]. cbn [fst snd] in *.
    change (TMark (length done) :: out ++ trun_sys o s1 (S (length done)) r)
      with ((TMark (length done) :: out) ++ trun_sys o s1 (S (length done)) r).
    rewrite walk_app, Hw, app_assoc.
    replace (S (length done)) with (length (done ++ [l])) by (rewrite app_length; apply Nat.add_1_r).
    replace (done ++ l :: r) with ((done ++ [l]) ++ r) by (rewrite <- app_assoc; reflexivity).
    apply IH; [rewrite <- app_assoc; exact E|exact HR1].
Qed.

Lemma run_sim {St} (step : list tlab -> St -> tout -> option St) (o : top) (R : tsys -> St -> Prop) :
  (forall ls_full done l r s w, ls_full = done ++ l :: r -> R s w ->
      exists w', walk (step ls_full) w (TMark (length done) :: snd (tstep o s l)) = Some w' /\ R (fst (tstep o s l)) w') ->
  forall r done s w ls_full,
    ls_full = done ++ r -> R s w -> accepted (walk (step ls_full) w (trun_sys o s (length done) r)) = true.
Proof.
  intros H r done s w ls_full E HR.
  destruct (run_sim_gen step o (fun _ _ => R) (fun ls_full done l r _ => H ls_full done l r) r done [] s w ls_full E HR)
    as (w' & _ & Hw & _).
  rewrite Hw. reflexivity.
Qed.

(* `SchedLaws.not_before t0 now tk` iff tk is finished or t0 <= lb now tk *)
Definition lb (now : N) (tk : task) : N :=
  match t_stage tk with StDelay d => now + d | StWait due => due | _ => now end.

Lemma lb_mono now dt tk : lb now tk <= lb (now + dt) tk.
Proof. unfold lb. destruct (t_stage tk); lia. Qed.

Lemma lb_not_before now tk : SchedLaws.not_before (lb now tk) now tk.
Proof. unfold SchedLaws.not_before, lb. destruct (t_stage tk); solve [apply N.le_refl | exact I]. Qed.

Lemma not_before_lb t0 now tk : SchedLaws.not_before t0 now tk -> t_stage tk = StFinished \/ t0 <= lb now tk.
Proof. unfold SchedLaws.not_before, lb. destruct (t_stage tk); auto. Qed.

(* SchedLaws.dead, SchedLaws.poll_dead: the names the rate-limiting proofs use *)
Definition status_quiet (tk : task) : Prop := t_stage tk = StFinished \/ t_keep tk = false.

Lemma poll_quiet now tk :
  (t_stage tk = StFinished \/ t_keep tk = false) ->
  snd (poll now tk) = PNone /\ (t_stage (fst (poll now tk)) = StFinished \/ t_keep (fst (poll now tk)) = false).
Proof. apply SchedLaws.poll_dead. Qed.

Lemma poll_status now tk : status_quiet tk -> status_quiet (fst (poll now tk)).
Proof. intros H. apply (poll_quiet now tk H). Qed.

Lemma poll_once now tk j :
  t_body tk = BOnce j ->
  let '(tk1, res) := poll now tk in
  (res = PNone /\ t_body tk1 = BOnce j /\ t_keep tk1 = t_keep tk /\
   (t_stage tk1 = StFinished \/ (t_keep tk = true /\ lb now tk <= lb now tk1 /\ t_value tk1 = t_value tk)))
  \/
  (res = PRun j 0 false /\ t_keep tk = true /\ lb now tk <= now /\ t_stage tk1 = StFinished /\ t_body tk1 = BOnce j).
Proof.
  intros Hb. pose proof (SchedLaws.poll_cases now tk) as P. pose proof (SchedLaws.poll_ran_once now tk j) as Ran.
  destruct (poll now tk) as [tk1 res]. cbn [fst snd] in Ran.
  destruct P as (Hb1 & Hk1 & Hlb & P). rewrite Hb in Hb1.
  specialize (Hlb _ (lb_not_before now tk)). apply not_before_lb in Hlb. destruct res as [|j' seq rep].
  - left. destruct P as (Hv & P). repeat split; auto. destruct P as [F|(K & _)]; [left; exact F|].
    destruct Hlb as [F|Hle]; [left; exact F|right; auto].
  - right. destruct P as (K & _ & Hle & _). destruct (Ran _ _ _ Hb eq_refl) as (-> & -> & -> & F & _).
    repeat split; auto. apply Hle, lb_not_before.
Qed.

Lemma poll_keeps now tk :
  t_body (fst (poll now tk)) = t_body tk /\
  (status_quiet (fst (poll now tk)) \/ lb now tk <= lb now (fst (poll now tk))).
Proof.
  pose proof (SchedLaws.poll_cases now tk) as P. destruct (poll now tk) as [tk1 res]. cbn [fst].
  destruct P as (Hb & _ & Hlb & _). split; [exact Hb|].
  destruct (not_before_lb _ _ _ (Hlb _ (lb_not_before now tk))) as [F|Hle]; [left; left; exact F|right; exact Hle].
Qed.

Lemma poll_live now tk :
  SchedLaws.value_inv tk ->
  let '(tk1, res) := poll now tk in
  (status_quiet tk -> status_quiet tk1) /\ (t_value tk = true -> t_value tk1 = true) /\ SchedLaws.value_inv tk1 /\
  match res with
  | PNone => True
  | PRun j seq false => t_value tk1 = true
  | PRun j seq true => exists p due, t_body tk1 = BRepeat j p due seq
  end.
Proof.
  intros V. pose proof (poll_status now tk) as PS. pose proof (SchedLaws.poll_value_inv now tk V) as PVI.
  pose proof (SchedLaws.poll_ran_once now tk) as Once. pose proof (SchedLaws.poll_ran_repeat now tk) as Rep.
  pose proof (SchedLaws.poll_cases now tk) as P. destruct (poll now tk) as [tk1 res]. cbn [fst snd] in *.
  destruct P as (Hb & _ & _ & P). split; [exact PS|]. destruct res as [|j seq rep].
  - destruct P as [-> _]. auto.
  - rewrite Hb. destruct (t_body tk) as [b|b p due k] eqn:Eb.
    + destruct (Once b j seq rep eq_refl eq_refl) as (_ & _ & -> & _ & Hv). rewrite Hv. auto.
    + destruct (Rep b p due k j seq rep eq_refl eq_refl) as (-> & -> & -> & _ & _ & ->). repeat split; eauto.
Qed.

(* The timer of a delayed task is created by its FIRST poll (the async block `{ new_timer(d).await; task.await }`
   is lazy), so a task that is not polled before the clock advances starts its delay late. *)
Definition stage_poll (T : N) (st : stage) : stage * bool :=
  match st with
  | StDelay d => if T <? T + d then (StWait (T + d), false) else (st, true)
  | StWait due => if T <? due then (st, false) else (st, true)
  | StBody => (st, true)
  | StFinished => (st, false)
  end.

Lemma poll_kept T tk : t_keep tk = true ->
  exists tk1, poll T tk = (if snd (stage_poll T (t_stage tk)) then poll_body T tk1 else (tk1, PNone)) /\
    t_keep tk1 = true /\ t_body tk1 = t_body tk /\
    t_stage tk1 = (if snd (stage_poll T (t_stage tk)) then StBody else fst (stage_poll T (t_stage tk))).
Proof.
  intros Hk. unfold poll, stage_poll. rewrite Hk. cbn [negb].
  destruct (t_stage tk) as [d|due| |] eqn:Es; try destruct (_ <? _); cbn [fst snd];
    eexists; (split; [reflexivity|]); cbn [t_keep t_body t_stage with_stage]; auto.
Qed.

Lemma after_tick_status now tk c : status_quiet tk -> status_quiet (after_tick now tk c).
Proof. unfold status_quiet, after_tick. intros H. destruct (t_body tk); [exact H|]. destruct c; cbn; auto. Qed.

Lemma after_tick_value now tk c : t_value tk = true -> t_value (after_tick now tk c) = true.
Proof. unfold after_tick. intros H. destruct (t_body tk); [exact H|]. destruct c; cbn; auto. Qed.

(* an operator or time source, not the bare scheduler *)
Definition not_raw (o : top) : Prop := match o with TRaw => False | _ => True end.

Definition raw_lab (l : tlab) : bool :=
  match l with LSpawnOnce _ | LSpawnRepeat _ _ _ | LSpawnSub _ | LCancel _ | LHandleClosed _ => true | _ => false end.

Lemma tstep_raw_lab o s l : not_raw o -> raw_lab l = true -> tstep o s l = (s, []).
Proof. intros Ho Hl. destruct l; try discriminate; destruct o; try contradiction; reflexivity. Qed.

Lemma upd_src_same s : upd_src s (src_on s) (src_done s) = s.
Proof. destruct s; reflexivity. Qed.

Lemma upd_tasks_same s : upd_tasks s (tasks s) = s.
Proof. destruct s; reflexivity. Qed.

Lemma cancel_task_upd s t : cancel_task s t = upd_tasks s (tasks (cancel_task s t)).
Proof. unfold cancel_task. destruct (nth_error (tasks s) t); [reflexivity|destruct s; reflexivity]. Qed.

(* beside the tasks, only the input connection (a subscribing task) or the inner subscriptions (a raw one) change *)
Lemma unsub_handle_upd o s t :
  exists ts on inn, fst (unsub_handle o s t) = upd_inner (upd_src (upd_tasks s ts) on (src_done s)) inn.
Proof.
  assert (Same : forall s0 : tsys, exists ts on inn, s0 = upd_inner (upd_src (upd_tasks s0 ts) on (src_done s0)) inn)
    by (intros s0; exists (tasks s0), (src_on s0), (inner_subs s0); destruct s0; reflexivity).
  unfold unsub_handle. destruct (nth_error (tasks s) t) as [tk|]; [|apply Same].
  destruct (nth_error (jobs s) t) as [j|]; [|apply Same].
  rewrite cancel_task_upd. generalize (tasks (cancel_task s t)). intros ts.
  destruct s as [nw tsk js al df so sd tr hd mu da mt inn].
  destruct j; cbn [subscribing andb]; try (exists ts, so, inn; reflexivity).
  - destruct (handle_closed tk); [exists ts, false, inn|exists ts, so, inn]; reflexivity.
  - destruct (handle_closed tk); [destruct (existsb _ _)|]; eexists ts, so, _; reflexivity.
Qed.

Lemma unsub_handles_upd o : forall l s,
  exists ts on inn, fst (unsub_handles o s l) = upd_inner (upd_src (upd_tasks s ts) on (src_done s)) inn.
Proof.
  induction l as [|t r IH]; intros s; [exists (tasks s), (src_on s), (inner_subs s); destruct s; reflexivity|].
  cbn [unsub_handles]. destruct (unsub_handle_upd o s t) as (ts1 & on1 & inn1 & E1).
  destruct (unsub_handle o s t) as [s1 o1]. cbn [fst] in E1. subst s1.
  destruct (IH (upd_inner (upd_src (upd_tasks s ts1) on1 (src_done s)) inn1)) as (ts2 & on2 & inn2 & E2).
  destruct (unsub_handles o _ r) as [s2 o2]. cbn [fst] in *. subst s2. exists ts2, on2, inn2. reflexivity.
Qed.

Lemma slot_term_eq s e : slot_term s e = (upd_alive s false, if alive s then [TOut (now s) e] else []).
Proof. unfold slot_term. destruct s as [? ? ? [|] ? ? ? ? ? ? ? ? ?]; reflexivity. Qed.

Lemma buffer_emit_upd s : fst (buffer_emit s) = upd_data s (if alive s then [] else data s).
Proof. unfold buffer_emit. destruct s as [? ? ? [|] ? ? ? ? ? ? [|] ? ?]; reflexivity. Qed.

Lemma buffer_emit_split s : buffer_emit s = (upd_data s (if alive s then [] else data s), snd (buffer_emit s)).
Proof. rewrite <- buffer_emit_upd. destruct (buffer_emit s); reflexivity. Qed.

Definition i_mark (st : istate) (l : option tlab) : istate :=
  {| i_w := w_label (i_w st) l; i_next := i_next st; i_earliest := i_earliest st |}.

Lemma w_label_now_unsub w l :
  w_now (w_label w (Some l)) = match l with LAdv dt => w_now w + dt | _ => w_now w end /\
  w_unsub (w_label w (Some l)) = match l with LUnsub => true | _ => w_unsub w end.
Proof. destruct l; try (split; reflexivity). cbn. destruct (w_src_done w); split; reflexivity. Qed.

(* What the three simulations share: every label that does not make task 0 run.  `Q`: what is known of task 0
   while it may still run (body, earliest next run, the two counters of the walk). *)
Section Source.
  Variables (o : top) (j0 : job) (step : list tlab -> istate -> tout -> option istate).
  Variable Q : body -> N -> nat -> N -> Prop.
  Hypothesis o_source : match o with TInterval _ | TIntervalAt _ _ | TTimer _ _ => True | _ => False end.
  Hypothesis j0_plain : subscribing j0 = false.
  Hypothesis step_mark : forall ls st j, step ls st (TMark j) = Some (i_mark st (nth_error ls j)).
  Hypothesis step_ret : forall ls st b, step ls st (TRet b) = Some st.
  Hypothesis Q_later : forall b x y n e, x <= y -> Q b x n e -> Q b y n e.

  Record RS (s : tsys) (st : istate) : Prop := {
    rs_now : w_now (i_w st) = now s;
    rs_jobs : jobs s = [j0];
    rs_main : main_task s = Some 0%nat;
    rs_src : src_on s = false;
    rs_task : exists tk, tasks s = [tk] /\ (w_unsub (i_w st) = true -> status_quiet tk) /\
              (status_quiet tk \/ Q (t_body tk) (lb (now s) tk) (i_next st) (i_earliest st))
  }.

  Definition after_mark (ls_full : list tlab) (l : tlab) (s : tsys) (st : istate) : Prop :=
    exists st', walk (step ls_full) (i_mark st (Some l)) (snd (tstep o s l)) = Some st' /\ RS (fst (tstep o s l)) st'.

  Lemma source_sim ls_full done l r s st :
    ls_full = done ++ l :: r -> RS s st ->
    (forall tk, l = LRun 0 -> tasks s = [tk] -> w_unsub (i_w st) = false -> snd (poll (now s) tk) <> PNone ->
                Q (t_body tk) (lb (now s) tk) (i_next st) (i_earliest st) -> after_mark ls_full l s st) ->
    exists st', walk (step ls_full) st (TMark (length done) :: snd (tstep o s l)) = Some st' /\ RS (fst (tstep o s l)) st'.
  Proof.
    intros E [Rn Rj Rm Rs (tk & Rt & Ru & Rb)] Hrun. specialize (Hrun tk).
    subst ls_full. cbn [walk]. rewrite step_mark, nth_error_mid.
    destruct (w_label_now_unsub (i_w st) l) as [Wn Wu].
    (* it is enough to name the next state of the system and of the task in it *)
    assert (K : forall s' tk' out,
              (out = [] \/ exists b, out = [TRet b]) ->
              now s' = match l with LAdv dt => now s + dt | _ => now s end ->
              jobs s' = jobs s -> main_task s' = main_task s -> src_on s' = src_on s ->
              tasks s' = [tk'] -> t_body tk' = t_body tk -> (status_quiet tk -> status_quiet tk') ->
              (l = LUnsub -> status_quiet tk') -> (status_quiet tk' \/ lb (now s) tk <= lb (now s') tk') ->
              exists st', walk (step (done ++ l :: r)) (i_mark st (Some l)) out = Some st' /\ RS s' st').
    { intros s' tk' out Hout Hn Hj Hm Hs Ht Hb Hq Hu Hl. exists (i_mark st (Some l)). split.
      - destruct Hout as [->|[b ->]]; cbn [walk]; rewrite ?step_ret; reflexivity.
      - constructor; cbn [i_mark i_w i_next i_earliest]; try congruence.
        + rewrite Wn, Hn, Rn. reflexivity.
        + exists tk'. split; [exact Ht|]. split.
          * rewrite Wu. intros Hu'. destruct l; auto.
          * destruct Rb as [Q0|Q0]; [left; auto|]. destruct Hl as [Hl|Hl]; [left; exact Hl|].
            right. rewrite Hb. apply (Q_later _ _ _ _ _ Hl Q0). }
    assert (Same : forall s' out,
              (out = [] \/ exists b, out = [TRet b]) ->
              match l with LAdv _ | LUnsub => False | _ => True end ->
              now s' = now s -> jobs s' = jobs s -> main_task s' = main_task s -> src_on s' = src_on s -> tasks s' = tasks s ->
              exists st', walk (step (done ++ l :: r)) (i_mark st (Some l)) out = Some st' /\ RS s' st').
    { intros s' out Hout Hl Hn Hj Hm Hs Ht. apply (K s' tk out); auto; try congruence.
      - destruct l; try contradiction; exact Hn.
      - intros ->. contradiction.
      - right. rewrite Hn. apply N.le_refl. }
    assert (Hnr : not_raw o) by (clear - o_source; destruct o; try contradiction; exact I).
    destruct (raw_lab l) eqn:Er.
    { rewrite (tstep_raw_lab o s l Hnr Er). apply Same; auto. destruct l; try discriminate Er; exact I. }
    destruct l; try discriminate Er; cbn [tstep].
    - (* LSrc *)
      rewrite Rs. destruct (src_done s); [|destruct (is_term e)]; cbn [fst snd]; apply Same; auto.
    - (* LRun *)
      destruct (Nat.eq_dec t 0) as [->|Ht0].
      + destruct (snd (poll (now s) tk)) eqn:Ep.
        * rewrite Rt, Rj. cbn [nth_error].
          destruct (poll_keeps (now s) tk) as [Hb Hl]. pose proof (poll_status (now s) tk) as PS.
          destruct (poll (now s) tk) as [tk1 res]. cbn [fst snd] in *. subst res. cbn [fst snd].
          apply (K _ tk1); auto. discriminate.
        * (* task 0 runs: it was neither quiet nor, hence, unsubscribed *)
          assert (Hq : ~ status_quiet tk) by (intros Hq; destruct (poll_quiet (now s) tk Hq) as [N _]; congruence).
          apply Hrun; auto; [|congruence|tauto].
          destruct (w_unsub (i_w st)); [destruct (Hq (Ru eq_refl))|reflexivity].
      + rewrite Rt, Rj, !nth_error_single. destruct t; [contradiction|]. cbn [fst snd]. apply Same; auto.
    - (* LAdv *)
      cbn [fst snd]. apply (K _ tk); auto; [discriminate|]. right. apply lb_mono.
    - (* LUnsub *)
      assert (Hu : on_unsub o s = (upd_tasks s [cancel tk], [])).
      { clear - o_source j0_plain Rm Rt Rj. destruct o; try contradiction; cbn [on_unsub]; rewrite Rm; unfold unsub_handle, cancel_task;
          rewrite Rt, Rj; cbn [nth_error]; rewrite j0_plain; reflexivity. }
      rewrite Hu. cbn [fst snd]. apply (K _ (cancel tk)); auto; intros; right; reflexivity.
    - (* LClosed *) cbn [fst snd]. apply Same; eauto.
    - (* LFinish *) cbn [fst snd]. apply Same; auto.
  Qed.
End Source.

Definition interval_like (o : top) : Prop :=
  match o with TInterval _ | TIntervalAt _ _ => True | _ => False end.

(* tick `n` is the next one, due at `due`, and the walk accepts it from `e` on *)
Definition QI (p : N) (b : body) (x : N) (n : nat) (e : N) : Prop :=
  exists due, b = BRepeat 0 p due n /\ e <= N.max x due.

Definition RI (p : N) := RS JInterval (QI p).

Lemma interval_step_sim o p :
  interval_like o ->
  forall ls_full done l r s st, ls_full = done ++ l :: r -> RI p s st ->
    exists st', walk (interval_step p ls_full) st (TMark (length done) :: snd (tstep o s l)) = Some st' /\
                RI p (fst (tstep o s l)) st'.
Proof.
  intros Ho ls_full done l r s st E R.
  apply (source_sim o JInterval (interval_step p) (QI p)) with (r := r); auto.
  { destruct o; try contradiction; exact I. }
  { intros b x y n e Hxy (due & Hb & He). exists due. split; [exact Hb|lia]. }
  intros tk -> Rt Hun Hrun (due & Hb & He). destruct R as [Rn Rj Rm Rs _].
  pose proof (SchedLaws.poll_cases (now s) tk) as P.
  pose proof (SchedLaws.poll_ran_repeat (now s) tk 0%nat p due (i_next st)) as Ran.
  destruct (poll (now s) tk) as [tk1 res] eqn:Ep. cbn [fst snd] in Hrun, Ran.
  destruct P as (Hb1 & _ & _ & P). rewrite Hb in Hb1. destruct res as [|j' seq' rep]; [contradiction|].
  destruct P as (_ & _ & Hle & _). specialize (Hle _ (lb_not_before (now s) tk)).
  destruct (Ran _ _ _ Hb eq_refl) as (-> & -> & -> & Hd & _).
  unfold after_mark.
  cbn [tstep]. rewrite Rt, Rj. cbn [nth_error]. rewrite Ep. cbn [on_job down_fin upd_tasks].
  destruct (down_fin s) eqn:Ed; cbn [fst snd tasks upd_tasks set_nth nth_error now walk].
  - (* the downstream has finished: the task retires *)
    eexists. split; [reflexivity|]. constructor; cbn; auto.
    eexists. split; [reflexivity|]. split; [congruence|].
    left. left. unfold after_tick. rewrite Hb1. reflexivity.
  - cbn [interval_step i_mark i_w i_next i_earliest w_label w_unsub w_now w_cur].
    rewrite Hun, Rn, N.eqb_refl, (proj2 (N.leb_le _ _)) by lia. cbn [negb andb ev_eqb val_eqb]. rewrite Z.eqb_refl.
    eexists. split; [reflexivity|]. constructor; cbn; auto.
    eexists. split; [reflexivity|]. split; [congruence|].
    right. unfold after_tick. rewrite Hb1. cbn. eexists. split; [reflexivity|]. lia.
Qed.

Theorem interval_meets_spec p ls : interval_ok p p ls (run_timed (TInterval p) ls) = true.
Proof.
  unfold interval_ok, run_timed.
  apply (run_sim (interval_step p) (TInterval p) (RI p) (interval_step_sim (TInterval p) p I) ls [] _ _ ls eq_refl).
  constructor; cbn; auto. eexists. split; [reflexivity|]. split; [discriminate|].
  right. eexists. split; [reflexivity|]. cbn. lia.
Qed.

Theorem interval_at_meets_spec dl p ls : interval_ok dl p ls (run_timed (TIntervalAt dl p) ls) = true.
Proof.
  unfold interval_ok, run_timed.
  apply (run_sim (interval_step p) (TIntervalAt dl p) (RI p) (interval_step_sim (TIntervalAt dl p) p I) ls [] _ _ ls eq_refl).
  constructor; cbn; auto. eexists. split; [reflexivity|]. split; [discriminate|].
  right. eexists. split; [reflexivity|]. cbn. lia.
Qed.

(* nothing was delivered yet, and the task will not run before `d` *)
Definition QT (d : N) (b : body) (x : N) (n : nat) (e : N) : Prop := b = BOnce 0 /\ n = 0%nat /\ d <= x.

Definition RT (v : val) (d : N) := RS (JTimer v) (QT d).

Lemma timer_step_sim v d :
  forall ls_full done l r s st, ls_full = done ++ l :: r -> RT v d s st ->
    exists st', walk (timer_step v d ls_full) st (TMark (length done) :: snd (tstep (TTimer v d) s l)) = Some st' /\
                RT v d (fst (tstep (TTimer v d) s l)) st'.
Proof.
  intros ls_full done l r s st E R.
  apply (source_sim (TTimer v d) (JTimer v) (timer_step v d) (QT d)) with (r := r); auto.
  { intros b x y n e Hxy (Hb & Hn & Hd). repeat split; auto. lia. }
  intros tk -> Rt Hun Hrun (Hb & Hn & Hd). destruct R as [Rn Rj Rm Rs _].
  pose proof (poll_once (now s) tk 0%nat Hb) as P.
  destruct (poll (now s) tk) as [tk1 res] eqn:Ep. cbn [snd] in Hrun.
  destruct P as [(-> & _)|(-> & Hk & Hlb & Hs1 & Hb1)]; [contradiction|].
  unfold after_mark.
  cbn [tstep]. rewrite Rt, Rj. cbn [nth_error]. rewrite Ep.
  cbn [on_job fst snd upd_tasks now walk timer_step i_mark i_w i_next i_earliest w_label w_unsub w_now w_cur].
  rewrite Hun, Rn, N.eqb_refl, Hn, (proj2 (N.leb_le _ _)) by lia. cbn [negb andb ev_eqb]. rewrite (val_eqb_refl v).
  cbn [i_w i_next w_unsub w_now negb andb ev_eqb]. rewrite N.eqb_refl. cbn [andb].
  eexists. split; [reflexivity|]. constructor; cbn; auto.
  eexists. split; [reflexivity|]. split; [congruence|]. left. left. exact Hs1.
Qed.

Theorem timer_meets_spec v d ls : timer_ok v d ls (run_timed (TTimer v d) ls) = true.
Proof.
  unfold timer_ok, run_timed.
  apply (run_sim (timer_step v d) (TTimer v d) (RT v d) (timer_step_sim v d) ls [] _ _ ls eq_refl).
  constructor; cbn; auto. eexists. split; [reflexivity|]. split; [discriminate|].
  right. repeat split. cbn. lia.
Qed.

(* the calls of the subscriber, with their times *)
Definition touts (out : list tout) : list tout :=
  filter (fun x => match x with TOut _ _ => true | _ => false end) out.

Lemma touts_app a b : touts (a ++ b) = touts a ++ touts b.
Proof. apply filter_app. Qed.

(* n rounds of: the clock advances by p, task 0 is polled (= Spec prompt_labels) *)
Fixpoint prompt_rounds (p : N) (n : nat) : list tlab :=
  match n with O => [] | S n' => LAdv p :: LRun 0 :: prompt_rounds p n' end.

(* n ticks numbered from k, the first at t + p, one period apart *)
Fixpoint expected_ticks (p : N) (k : nat) (t : N) (n : nat) : list tout :=
  match n with O => [] | S n' => TOut (t + p) (Next (VZ (Z.of_nat k))) :: expected_ticks p (S k) (t + p) n' end.

Lemma tick o s tk p due k :
  tasks s = [tk] -> jobs s = [JInterval] -> down_fin s = false ->
  t_keep tk = true -> t_body tk = BRepeat 0 p due k -> due <= now s -> snd (stage_poll (now s) (t_stage tk)) = true ->
  exists tk', tstep o s (LRun 0) = (upd_tasks s [tk'], [TOut (now s) (Next (VZ (Z.of_nat k)))]) /\
    t_stage tk' = StBody /\ t_keep tk' = true /\ t_body tk' = BRepeat 0 p (now s + p) (S k).
Proof.
  intros Ht Hj Hd Hk Hb Hdue Hs. destruct (poll_kept (now s) tk Hk) as (tk1 & P & K1 & B1 & S1). rewrite Hs in P, S1.
  cbn [tstep]. rewrite Ht, Hj. cbn [nth_error]. rewrite P. unfold poll_body. rewrite B1, Hb, (proj2 (N.ltb_ge _ _) Hdue).
  cbn [on_job upd_tasks down_fin]. rewrite Hd. cbn [upd_tasks tasks now nth_error set_nth]. unfold after_tick. rewrite B1, Hb.
  exists (with_body tk1 (BRepeat 0 p (now s + p) (S k))). auto.
Qed.

Lemma prompt_full_gen p o : forall n k s j tk,
  tasks s = [tk] -> jobs s = [JInterval] -> down_fin s = false ->
  t_stage tk = StBody -> t_keep tk = true -> t_body tk = BRepeat 0 p (now s + p) k ->
  trun_sys o s j (prompt_labels p n) = prompt_trace p n j k (now s).
Proof.
  induction n as [|n IH]; intros k s j tk Ht Hj Hd Hs Hk Hb; [reflexivity|].
  cbn [prompt_labels prompt_trace trun_sys]. change (tstep o s (LAdv p)) with (upd_now s (now s + p), @nil tout). cbn [app].
  destruct (tick o (upd_now s (now s + p)) tk p (now s + p) k Ht Hj Hd Hk Hb (N.le_refl _)) as (tk' & E & S' & K' & B').
  { rewrite Hs. reflexivity. }
  rewrite E. cbn [app]. do 3 f_equal. apply (IH (S k) (upd_tasks (upd_now s (now s + p)) [tk']) _ tk'); auto.
Qed.

Lemma prompt_rounds_labels p n : prompt_rounds p n = prompt_labels p n.
Proof. induction n as [|n IH]; [reflexivity|]. cbn [prompt_rounds prompt_labels]. rewrite IH. reflexivity. Qed.

Lemma touts_prompt_trace p : forall n j k t, touts (prompt_trace p n j k t) = expected_ticks p k t n.
Proof.
  induction n as [|n IH]; intros j k t; [reflexivity|].
  cbn [prompt_trace expected_ticks]. unfold touts. cbn [filter]. f_equal. apply IH.
Qed.

(* whenever the executor runs as the timer falls due, ticks are exactly one period apart *)
Theorem interval_prompt p n : 0 < p ->
  touts (run_timed (TInterval p) (prompt_rounds p n)) = expected_ticks p 0 0 n.
Proof.
  intros _. rewrite prompt_rounds_labels. unfold run_timed.
  rewrite (prompt_full_gen p (TInterval p) n 0%nat (tinit (TInterval p)) 0%nat (spawn (repeat_new 0 0 p) None)) by reflexivity.
  apply touts_prompt_trace.
Qed.

Definition slot_job (j : job) : bool :=
  match j with JEmit _ | JEmitErr _ | JComplete | JTrailing | JFlush => true | _ => false end.

(* a task that can no longer reach the subscriber *)
Definition quiet_task (s : tsys) (tk : task) (j : job) : Prop :=
  t_stage tk = StFinished \/ t_keep tk = false \/ (alive s = false /\ slot_job j = true).

Record Silent (s : tsys) : Prop := {
  sil_src : src_on s = false;
  sil_tasks : forall i tk j, nth_error (tasks s) i = Some tk -> nth_error (jobs s) i = Some j -> quiet_task s tk j
}.

(* the subscriber is not called in this trace *)
Definition no_tout (out : list tout) : Prop := forall x, In x out -> match x with TOut _ _ => False | _ => True end.

Lemma no_tout_nil : no_tout [].
Proof. intros x []. Qed.

Lemma no_tout_app a b : no_tout a -> no_tout b -> no_tout (a ++ b).
Proof. intros Ha Hb x Hx. apply in_app_or in Hx. destruct Hx as [Hx|Hx]; [apply Ha, Hx|apply Hb, Hx]. Qed.

Lemma quiet_task_cases s tk j : quiet_task s tk j <-> status_quiet tk \/ (alive s = false /\ slot_job j = true).
Proof. unfold quiet_task, status_quiet. split; [intros [H|[H|H]]|intros [[H|H]|H]]; auto. Qed.

Lemma quiet_mono s s' tk j : (alive s = false -> alive s' = false) -> quiet_task s tk j -> quiet_task s' tk j.
Proof. intros H [Q|[Q|[Q1 Q2]]]; [left|right; left|right; right]; auto. Qed.

Lemma cancel_task_cancelled s t tk : nth_error (tasks (cancel_task s t)) t = Some tk -> t_keep tk = false.
Proof.
  unfold cancel_task. destruct (nth_error (tasks s) t) eqn:E; [|congruence]. cbn [upd_tasks tasks]. intros H.
  apply nth_error_set_nth in H. destruct H as [[_ ->]|[N _]]; [reflexivity|congruence].
Qed.

Lemma cancel_idem tk : cancel (cancel tk) = cancel tk.
Proof. reflexivity. Qed.

Definition handles_eff (s s' : tsys) (ts : list nat) : Prop :=
  jobs s' = jobs s /\ alive s' = alive s /\ length (tasks s') = length (tasks s) /\
  (src_on s' = src_on s \/ src_on s' = false) /\
  (forall i tk', nth_error (tasks s') i = Some tk' ->
     exists tk, nth_error (tasks s) i = Some tk /\ (tk' = tk \/ tk' = cancel tk) /\
                (In i ts -> nth_error (jobs s) i <> None -> tk' = cancel tk)).

Lemma unsub_handle_eff o s t : handles_eff s (fst (unsub_handle o s t)) [t].
Proof.
  assert (Hc : handles_eff s (cancel_task s t) [t]).
  { unfold cancel_task. destruct (nth_error (tasks s) t) as [tk|] eqn:Et; repeat split; cbn [upd_tasks tasks]; auto.
    - apply set_nth_length.
    - intros i tk' Hi. apply nth_error_set_nth in Hi. destruct Hi as [[-> ->]|[Hne Hi]]; [exists tk; auto|].
      exists tk'. repeat split; auto. intros [E|[]]. congruence.
    - intros i tk' Hi. exists tk'. repeat split; auto. intros [<-|[]]. congruence. }
  assert (Hn : (nth_error (tasks s) t = None \/ nth_error (jobs s) t = None) -> handles_eff s s [t]).
  { intros Hn. repeat split; auto. intros i tk' Hi. exists tk'. repeat split; auto.
    intros [<-|[]] Hj. destruct Hn; congruence. }
  unfold unsub_handle.
  destruct (nth_error (tasks s) t) as [tk|] eqn:Et; [|apply Hn; auto].
  destruct (nth_error (jobs s) t) as [j|] eqn:Ej; [|apply Hn; auto].
  (* beyond the cancellation, a subscribing task's handle changes only src_on or inner_subs *)
  destruct j; cbn [subscribing andb]; try exact Hc; destruct (handle_closed tk); cbn [fst]; try exact Hc.
  - destruct Hc as (H1 & H2 & H3 & H4 & H5). repeat split; cbn; auto.
  - destruct (existsb _ _); cbn [fst]; [|exact Hc].
    destruct Hc as (H1 & H2 & H3 & H4 & H5). repeat split; cbn; auto.
Qed.

Lemma handles_eff_trans s s1 s2 a b : handles_eff s s1 a -> handles_eff s1 s2 b -> handles_eff s s2 (a ++ b).
Proof.
  intros (A1 & A2 & A3 & A4 & A5) (B1 & B2 & B3 & B4 & B5). repeat split; try congruence.
  - destruct B4 as [B4|B4]; [rewrite B4; exact A4|right; exact B4].
  - intros i tk2 H2. destruct (B5 i tk2 H2) as (tk1 & H1 & S1 & C1). destruct (A5 i tk1 H1) as (tk & H0 & S0 & C0).
    exists tk. split; [exact H0|]. split.
    + destruct S1 as [->| ->]; destruct S0 as [->| ->]; auto.
    + intros Hin Hn. apply in_app_or in Hin. destruct Hin as [Hin|Hin].
      * rewrite (C0 Hin Hn) in *. destruct S1 as [->| ->]; reflexivity.
      * rewrite A1 in C1. rewrite (C1 Hin Hn). destruct S0 as [->| ->]; reflexivity.
Qed.

Lemma unsub_handles_eff o : forall ts s, handles_eff s (fst (unsub_handles o s ts)) ts.
Proof.
  induction ts as [|t r IH]; intros s.
  { repeat split; auto. intros i tk' H. exists tk'. repeat split; auto. intros []. }
  cbn [unsub_handles]. pose proof (unsub_handle_eff o s t) as E1.
  destruct (unsub_handle o s t) as [s1 o1]. cbn [fst] in *.
  pose proof (IH s1) as E2. destruct (unsub_handles o s1 r) as [s2 o2]. cbn [fst] in *.
  apply (handles_eff_trans s s1 s2 [t] r E1 E2).
Qed.

Lemma handles_eff_cancelled s s' ts i j tk' :
  handles_eff s s' ts -> In i ts -> nth_error (jobs s) i = Some j -> nth_error (tasks s') i = Some tk' -> t_keep tk' = false.
Proof.
  intros (_ & _ & _ & _ & E) Hin Hj Hi. destruct (E i tk' Hi) as (tk & _ & _ & C).
  rewrite C by (auto; congruence). reflexivity.
Qed.

Lemma unsub_handle_subscribed o s t tk :
  nth_error (tasks s) t = Some tk -> nth_error (jobs s) t = Some JSubscribe -> t_value tk = true ->
  src_on (fst (unsub_handle o s t)) = false.
Proof.
  intros Ht Hj Hv. unfold unsub_handle. rewrite Ht, Hj. cbn [subscribing andb]. unfold handle_closed. rewrite Hv. reflexivity.
Qed.

(* only the teardown of what a raw subscribing task produced *)
Definition inner_only (out : list tout) : Prop := forall x, In x out -> exists i, x = TInnerUnsub i.

Lemma unsub_handle_out o s t : inner_only (snd (unsub_handle o s t)).
Proof.
  unfold unsub_handle. destruct (nth_error (tasks s) t) as [tk|]; [|intros x []].
  destruct (nth_error (jobs s) t) as [j|]; [|intros x []].
  destruct j; cbn [subscribing andb snd]; try (intros x []); destruct (handle_closed tk); cbn [snd]; try (intros x []).
  destruct (existsb _ _); cbn [snd]; [intros x [<-|[]]; eauto|intros x []].
Qed.

Lemma unsub_handles_out o : forall ts s, inner_only (snd (unsub_handles o s ts)).
Proof.
  induction ts as [|t r IH]; intros s; [intros x []|]. cbn [unsub_handles].
  pose proof (unsub_handle_out o s t) as N1. destruct (unsub_handle o s t) as [s1 o1].
  pose proof (IH s1) as N2. destruct (unsub_handles o s1 r) as [s2 o2]. cbn [snd] in *.
  intros x Hx. apply in_app_or in Hx. destruct Hx; auto.
Qed.

Lemma inner_only_no_tout out : inner_only out -> no_tout out.
Proof. intros H x Hx. destruct (H x Hx) as [i ->]. exact I. Qed.

(* The forms `on_unsub` takes: unsub_main for delay_subscription, subscribe_on, interval, interval_at, timer;
   unsub_relay for delay, observe_on; unsub_buffer for the buffers.  A fact about a form reaches its operators
   by `destruct o; cbn [on_unsub]; try exact ..` (conversion). *)
Definition unsub_main (o : top) (s : tsys) : tsys * list tout :=
  match main_task s with Some t => unsub_handle o s t | None => (s, []) end.
Definition unsub_relay (o : top) (s : tsys) : tsys * list tout :=
  let s1 := upd_src s false (src_done s) in
  match multi s1 with Some l => unsub_handles o (upd_multi s1 None) l | None => (s1, []) end.
Definition unsub_buffer (o : top) (s : tsys) : tsys * list tout :=
  let '(s1, o1) := unsub_main o s in (upd_src s1 false (src_done s1), o1).

Lemma on_unsub_no_tout o s : no_tout (snd (on_unsub o s)).
Proof.
  assert (Main : no_tout (snd (unsub_main o s))).
  { unfold unsub_main. destruct (main_task s); [apply inner_only_no_tout, unsub_handle_out|apply no_tout_nil]. }
  assert (Relay : no_tout (snd (unsub_relay o s))).
  { unfold unsub_relay. cbn zeta. destruct (multi _); [apply inner_only_no_tout, unsub_handles_out|apply no_tout_nil]. }
  assert (Buffer : no_tout (snd (unsub_buffer o s))).
  { unfold unsub_buffer. destruct (unsub_main o s). exact Main. }
  destruct o; cbn [on_unsub]; try exact Main; try exact Relay; try exact Buffer; try apply no_tout_nil.
  destruct (handler _); apply no_tout_nil.
Qed.

(* s' is s with some tasks cancelled, perhaps the slot emptied or the input disconnected: all that
   unsubscribing does, and silence survives it *)

Definition dimmed (s s' : tsys) : Prop :=
  jobs s' = jobs s /\ (alive s = false -> alive s' = false) /\ (src_on s = false -> src_on s' = false) /\
  forall i tk', nth_error (tasks s') i = Some tk' ->
    exists tk, nth_error (tasks s) i = Some tk /\ (tk' = tk \/ tk' = cancel tk).

Lemma dimmed_fields s s' :
  tasks s' = tasks s -> jobs s' = jobs s -> (alive s = false -> alive s' = false) ->
  (src_on s = false -> src_on s' = false) -> dimmed s s'.
Proof. intros Ht Hj Ha Hs. repeat split; auto. intros i tk' Hi. exists tk'. rewrite <- Ht. auto. Qed.

Lemma dimmed_trans s s1 s2 : dimmed s s1 -> dimmed s1 s2 -> dimmed s s2.
Proof.
  intros (A1 & A2 & A3 & A4) (B1 & B2 & B3 & B4). repeat split; auto; [congruence|].
  intros i tk2 H2. destruct (B4 i tk2 H2) as (tk1 & H1 & S1). destruct (A4 i tk1 H1) as (tk & H0 & S0).
  exists tk. split; [exact H0|]. destruct S1 as [->| ->], S0 as [->| ->]; auto.
Qed.

Lemma dimmed_cancel s t : dimmed s (cancel_task s t).
Proof.
  unfold cancel_task. destruct (nth_error (tasks s) t) as [tk|] eqn:Et; [|apply dimmed_fields; auto].
  repeat split; auto. cbn [upd_tasks tasks]. intros i tk' Hi.
  apply nth_error_set_nth in Hi. destruct Hi as [[-> ->]|[_ Hi]]; eauto.
Qed.

Lemma handles_eff_dimmed s s' ts : handles_eff s s' ts -> dimmed s s'.
Proof.
  intros (E1 & E2 & _ & E4 & E5). repeat split; auto; [congruence|destruct E4; congruence|].
  intros i tk' Hi. destruct (E5 i tk' Hi) as (tk & Ht & Hs & _). eauto.
Qed.

Lemma on_unsub_dimmed o s : dimmed s (fst (on_unsub o s)).
Proof.
  assert (Src : dimmed s (upd_src s false (src_done s))) by (apply dimmed_fields; cbn; auto).
  assert (Main : dimmed s (fst (unsub_main o s))).
  { unfold unsub_main. destruct (main_task s); [apply (handles_eff_dimmed _ _ [n]), unsub_handle_eff|apply dimmed_fields; auto]. }
  assert (Relay : dimmed s (fst (unsub_relay o s))).
  { unfold unsub_relay. cbn zeta. destruct (multi _) as [l|]; [|exact Src]. apply (dimmed_trans _ _ _ Src).
    apply (dimmed_trans _ (upd_multi (upd_src s false (src_done s)) None)); [apply dimmed_fields; auto|].
    apply (handles_eff_dimmed _ _ l), unsub_handles_eff. }
  assert (Buffer : dimmed s (fst (unsub_buffer o s))).
  { unfold unsub_buffer. destruct (unsub_main o s) as [s1 o1]. cbn [fst] in *.
    apply (dimmed_trans _ _ _ Main), dimmed_fields; cbn; auto. }
  destruct o; cbn [on_unsub]; try exact Main; try exact Relay; try exact Buffer.
  - destruct (handler _) as [h|]; cbn [fst]; [|exact Src].
    apply (dimmed_trans _ _ _ Src), (dimmed_trans _ _ _ (dimmed_cancel _ h)), dimmed_fields; cbn; auto.
  - apply (dimmed_trans _ _ _ Src), dimmed_fields; cbn; auto.
  - apply dimmed_fields; auto.
Qed.

Lemma silent_dimmed s s' : Silent s -> dimmed s s' -> Silent s'.
Proof.
  intros [A B] (D1 & D2 & D3 & D4). split; [auto|]. intros i tk' j Hi Hj. rewrite D1 in Hj.
  destruct (D4 i tk' Hi) as (tk & Ht & [->| ->]); [|right; left; reflexivity].
  apply (quiet_mono s); [exact D2|]. apply (B i tk j Ht Hj).
Qed.

Lemma silent_set_task s t tk' :
  Silent s -> (forall j, nth_error (jobs s) t = Some j -> quiet_task s tk' j) ->
  Silent (upd_tasks s (set_nth (tasks s) t tk')).
Proof.
  intros [A B] Hq. split; [exact A|]. cbn [upd_tasks tasks jobs]. intros i tk j Hi Hj.
  apply nth_error_set_nth in Hi. destruct Hi as [[-> ->]|[_ Hi]]; [apply Hq, Hj|apply (B i tk j Hi Hj)].
Qed.

Lemma dead_slot_job o s t j seq :
  alive s = false -> slot_job j = true ->
  let '(s1, out, c) := on_job o s t j seq in
  out = [] /\ alive s1 = false /\ tasks s1 = tasks s /\ jobs s1 = jobs s /\ src_on s1 = src_on s.
Proof.
  intros Ha Hj. destruct j; cbn in Hj; try discriminate; cbn [on_job];
    unfold slot_next, slot_term; rewrite ?Ha; cbn; auto.
  destruct (trailing s); cbn; rewrite ?Ha; cbn; auto.
Qed.

Lemma silent_step o s l :
  not_raw o -> Silent s ->
  Silent (fst (tstep o s l)) /\ no_tout (snd (tstep o s l)).
Proof.
  intros Ho HS.
  assert (Keep : forall s', tasks s' = tasks s -> jobs s' = jobs s -> (alive s = false -> alive s' = false) ->
                            (src_on s = false -> src_on s' = false) -> Silent s' /\ no_tout []).
  { intros s' E1 E2 E3 E4. split; [apply (silent_dimmed s _ HS), dimmed_fields; assumption|apply no_tout_nil]. }
  destruct (raw_lab l) eqn:Er; [rewrite (tstep_raw_lab o s l Ho Er); apply Keep; auto|].
  pose proof HS as [Hsrc Ht]. destruct l; try discriminate Er; cbn [tstep].
  - (* LSrc *)
    rewrite Hsrc. destruct (src_done s); [|destruct (is_term e)]; apply Keep; auto.
  - (* LRun *)
    destruct (nth_error (tasks s) t) as [tk|] eqn:Et; [|apply Keep; auto].
    destruct (nth_error (jobs s) t) as [j|] eqn:Ej; [|apply Keep; auto].
    pose proof (poll_quiet (now s) tk) as PQ. destruct (poll (now s) tk) as [tk1 res]. cbn [fst snd] in PQ.
    destruct (proj1 (quiet_task_cases s tk j) (Ht t tk j Et Ej)) as [Q|[Ha Hsj]].
    + destruct (PQ Q) as [-> Q1]. cbn [fst snd]. split; [|apply no_tout_nil].
      apply (silent_set_task s t tk1 HS). intros j' _. apply quiet_task_cases. left. exact Q1.
    + (* the slot is empty: the job may run, delivers nothing, and task t stays quiet *)
      assert (Stay : forall s' tk', Silent s' -> alive s' = false -> jobs s' = jobs s ->
                                   Silent (upd_tasks s' (set_nth (tasks s') t tk'))).
      { intros s' tk' HS' Ha' Hj'. apply (silent_set_task s' t tk' HS'). intros j'. rewrite Hj', Ej.
        intros [= <-]. right. right. auto. }
      pose proof (Stay s tk1 HS Ha eq_refl) as HS1.
      destruct res as [|jn seq rep]; [split; [exact HS1|apply no_tout_nil]|].
      pose proof (dead_slot_job o (upd_tasks s (set_nth (tasks s) t tk1)) t j seq Ha Hsj) as D.
      destruct (on_job o _ t j seq) as [[s2 out] c]. destruct D as (-> & Ha2 & Ht2 & Hj2 & Hsrc2).
      assert (HS2 : Silent s2) by (apply (silent_dimmed _ _ HS1), dimmed_fields; auto; congruence).
      destruct rep; [|split; [exact HS2|apply no_tout_nil]].
      destruct (nth_error (tasks s2) t); cbn [fst snd]; (split; [|apply no_tout_nil]).
      * apply Stay; auto.
      * exact HS2.
  - (* LAdv *) apply Keep; auto.
  - (* LUnsub *) split; [apply (silent_dimmed s _ HS), on_unsub_dimmed|apply on_unsub_no_tout].
  - (* LClosed *) split; [exact HS|]. intros x [<-|[]]. exact I.
  - (* LFinish *) apply Keep; auto.
Qed.

(* before the first unsubscribe, the subscription returned by `actual_subscribe` covers every task that could
   still reach the subscriber *)

Definition covered (o : top) (s : tsys) (i : nat) (j : job) : Prop :=
  match o with
  | TDelay _ | TObserveOn => exists l, multi s = Some l /\ In i l
  | TDebounce _ => handler s = Some i
  | TThrottle _ _ => slot_job j = true
  | TDelaySubscription _ | TSubscribeOn | TBufferTime _ | TBufferCountTime _ _
  | TInterval _ | TIntervalAt _ _ | TTimer _ _ => main_task s = Some i
  | TRaw => False
  end.

(* the input is connected only where unsubscribe() will disconnect it *)
Definition src_guard (o : top) (s : tsys) : Prop :=
  match o with
  | TDelaySubscription _ | TSubscribeOn =>
      main_task s = Some 0%nat /\ nth_error (jobs s) 0 = Some JSubscribe /\
      (src_on s = true -> exists tk, nth_error (tasks s) 0 = Some tk /\ t_value tk = true)
  | TInterval _ | TIntervalAt _ _ | TTimer _ _ => src_on s = false
  | TDelay _ | TObserveOn => exists l, multi s = Some l
  | _ => True
  end.

Record LiveInv (o : top) (s : tsys) : Prop := {
  li_len : length (jobs s) = length (tasks s);
  li_tasks : forall i tk j, nth_error (tasks s) i = Some tk -> nth_error (jobs s) i = Some j ->
                            quiet_task s tk j \/ covered o s i j;
  li_src : src_guard o s;
  li_nosub : forall i, nth_error (jobs s) i = Some JSubscribe -> i = 0%nat /\ match o with TDelaySubscription _ | TSubscribeOn => True | _ => False end;
  (* a handle reports closed only for a finished task *)
  li_value : forall i tk, nth_error (tasks s) i = Some tk -> t_value tk = true -> t_stage tk = StFinished
}.

Lemma on_unsub_cancels o s i j tk' :
  covered o s i j -> nth_error (jobs s) i = Some j -> nth_error (tasks (fst (on_unsub o s))) i = Some tk' ->
  t_keep tk' = false \/ (alive (fst (on_unsub o s)) = false /\ slot_job j = true).
Proof.
  intros C Hj.
  assert (Main : main_task s = Some i -> nth_error (tasks (fst (unsub_main o s))) i = Some tk' -> t_keep tk' = false).
  { unfold unsub_main. intros ->. apply (handles_eff_cancelled s _ [i] i j); [apply unsub_handle_eff|left; reflexivity|exact Hj]. }
  assert (Relay : (exists l, multi s = Some l /\ In i l) ->
                  nth_error (tasks (fst (unsub_relay o s))) i = Some tk' -> t_keep tk' = false).
  { intros (l & Hl & Hin). unfold unsub_relay. cbn zeta. cbn [upd_src multi]. rewrite Hl.
    apply (handles_eff_cancelled (upd_multi (upd_src s false (src_done s)) None) _ l i j);
      [apply unsub_handles_eff|exact Hin|exact Hj]. }
  assert (Buffer : main_task s = Some i -> nth_error (tasks (fst (unsub_buffer o s))) i = Some tk' -> t_keep tk' = false).
  { intros Hm. specialize (Main Hm). unfold unsub_buffer. destruct (unsub_main o s). exact Main. }
  destruct o; cbn [on_unsub covered] in *; intros Hi;
    try (left; exact (Main C Hi)); try (left; exact (Relay C Hi)); try (left; exact (Buffer C Hi)).
  - (* debounce: the handle cell holds the covered task *)
    cbn [upd_src handler] in Hi. rewrite C in Hi. left. apply (cancel_task_cancelled _ i tk' Hi).
  - (* throttle: the slot is emptied *)
    right. split; [reflexivity|exact C].
  - contradiction.
Qed.

Lemma on_unsub_src_off o s : not_raw o -> src_guard o s -> src_on (fst (on_unsub o s)) = false.
Proof.
  intros Ho G.
  assert (Stay : forall s0 ts, src_on s0 = false -> src_on (fst (unsub_handles o s0 ts)) = false).
  { intros s0 ts H0. destruct (unsub_handles_eff o ts s0) as (_ & _ & _ & [E|E] & _); congruence. }
  (* the input was not connected, or this is the handle of the task that connected it *)
  assert (Main : src_on s = false \/ src_guard TSubscribeOn s -> src_on (fst (unsub_main o s)) = false).
  { unfold unsub_main. intros [Hs|(Gm & Gj & Gs)].
    - destruct (main_task s) as [t|]; [|exact Hs].
      destruct (unsub_handle_eff o s t) as (_ & _ & _ & [E|E] & _); congruence.
    - rewrite Gm. destruct (src_on s) eqn:Es.
      + destruct (Gs eq_refl) as (tk & Ht & Hv). apply (unsub_handle_subscribed o s 0%nat tk Ht Gj Hv).
      + destruct (unsub_handle_eff o s 0%nat) as (_ & _ & _ & [E|E] & _); congruence. }
  destruct o; try contradiction; cbn [on_unsub src_guard] in *;
    try (apply Main; left; exact G); try (apply Main; right; exact G).
  - (* delay *) destruct (multi _); [apply Stay|]; reflexivity.
  - (* observe_on *) destruct (multi _); [apply Stay|]; reflexivity.
  - (* debounce *) destruct (handler _) as [h|]; [|reflexivity].
    destruct (dimmed_cancel (upd_src s false (src_done s)) h) as (_ & _ & D & _). apply D. reflexivity.
  - (* throttle *) reflexivity.
  - (* buffer_with_time *) destruct (match main_task s with Some t => _ | None => _ end). reflexivity.
  - (* buffer_with_count_and_time *) destruct (match main_task s with Some t => _ | None => _ end). reflexivity.
Qed.

Lemma live_unsub_silent o s : not_raw o -> LiveInv o s -> Silent (fst (on_unsub o s)).
Proof.
  intros Ho L. destruct (on_unsub_dimmed o s) as (D1 & D2 & _ & D4).
  split; [apply (on_unsub_src_off o s Ho), L|]. intros i tk' j Hi Hj. rewrite D1 in Hj.
  destruct (D4 i tk' Hi) as (tk & Ht & Hs). destruct (li_tasks o s L i tk j Ht Hj) as [Q|C].
  - destruct Hs as [->| ->]; [apply (quiet_mono s); auto|right; left; reflexivity].
  - destruct (on_unsub_cancels o s i j tk' C Hj Hi) as [K|K]; [right; left; exact K|right; right; exact K].
Qed.

Lemma covered_same o s s' i j :
  multi s' = multi s -> handler s' = handler s -> main_task s' = main_task s -> covered o s i j -> covered o s' i j.
Proof. intros Hm Hh Hmt. destruct o; cbn [covered]; rewrite ?Hm, ?Hh, ?Hmt; auto. Qed.

Lemma src_guard_same o s s' :
  tasks s' = tasks s -> jobs s' = jobs s -> multi s' = multi s -> main_task s' = main_task s -> src_on s' = src_on s ->
  src_guard o s -> src_guard o s'.
Proof. intros Ht Hj Hm Hmt Hs. destruct o; cbn [src_guard]; rewrite ?Ht, ?Hj, ?Hm, ?Hmt, ?Hs; auto. Qed.

Lemma li_upd o s s' :
  LiveInv o s -> tasks s' = tasks s -> jobs s' = jobs s -> multi s' = multi s -> handler s' = handler s ->
  main_task s' = main_task s -> (alive s = false -> alive s' = false) -> src_guard o s' -> LiveInv o s'.
Proof.
  intros [L1 L2 L3 L4 L5] Ht Hj Hm Hh Hmt Ha Hg. split; rewrite ?Ht, ?Hj; auto.
  intros i tk j Hi Hjj. destruct (L2 i tk j Hi Hjj) as [Q|C].
  - left. apply (quiet_mono s); auto.
  - right. apply (covered_same o s); auto.
Qed.

Lemma li_fields o s s' :
  LiveInv o s -> tasks s' = tasks s -> jobs s' = jobs s -> multi s' = multi s -> handler s' = handler s ->
  main_task s' = main_task s -> alive s' = alive s -> src_on s' = src_on s -> LiveInv o s'.
Proof.
  intros L H1 H2 H3 H4 H5 H6 H7. apply (li_upd o s); auto; [congruence|].
  apply (src_guard_same o s); auto. apply L.
Qed.

Lemma li_set_task o s t tk tk' :
  LiveInv o s -> nth_error (tasks s) t = Some tk -> (status_quiet tk -> status_quiet tk') ->
  (match o with TDelaySubscription _ | TSubscribeOn => t = 0%nat -> t_value tk = true -> t_value tk' = true | _ => True end) ->
  (t_value tk' = true -> t_stage tk' = StFinished) ->
  LiveInv o (upd_tasks s (set_nth (tasks s) t tk')).
Proof.
  intros [L1 L2 L3 L4 L5] Ht Hq Hv Hvi. split; cbn [upd_tasks tasks jobs].
  - rewrite set_nth_length. exact L1.
  - intros i tk2 j Hi Hj. apply nth_error_set_nth in Hi. destruct Hi as [[-> ->]|[_ Hi]]; [|apply (L2 i tk2 j Hi Hj)].
    destruct (L2 t tk j Ht Hj) as [Q|C]; [left|right; exact C].
    apply quiet_task_cases. apply quiet_task_cases in Q. destruct Q as [Q|Q]; [left; auto|right; exact Q].
  - (* only the guard of the subscribing operators reads the tasks: the value of task 0 *)
    assert (K : (t = 0%nat -> t_value tk = true -> t_value tk' = true) ->
                src_guard TSubscribeOn s -> src_guard TSubscribeOn (upd_tasks s (set_nth (tasks s) t tk'))).
    { intros Hv0 (G1 & G2 & G3). cbn [src_guard upd_tasks tasks jobs main_task src_on]. repeat split; auto. intros Hon. destruct (G3 Hon) as (tk0 & Ht0 & Hv1).
      destruct (Nat.eq_dec t 0) as [->|Hne].
      - exists tk'. split; [apply (nth_error_set_nth_eq _ _ _ _ Ht)|]. apply Hv0; congruence.
      - exists tk0. rewrite nth_error_set_nth_neq by exact Hne. auto. }
    destruct o; try exact L3; exact (K Hv L3).
  - exact L4.
  - intros i tk2 Hi. apply nth_error_set_nth in Hi. destruct Hi as [[_ ->]|[_ Hi]]; [exact Hvi|apply (L5 i tk2 Hi)].
Qed.

Lemma li_cancel o s t :
  match o with TDelaySubscription _ | TSubscribeOn => False | _ => True end ->
  LiveInv o s -> LiveInv o (cancel_task s t).
Proof.
  intros Hop L. unfold cancel_task. destruct (nth_error (tasks s) t) as [tk|] eqn:Et; [|exact L].
  apply (li_set_task o s t tk (cancel tk) L Et).
  - intros _. right. reflexivity.
  - destruct o; auto; contradiction.
  - cbn. discriminate.
Qed.

Lemma li_schedule o s s2 tk j :
  LiveInv o s -> j <> JSubscribe -> t_value tk = false ->
  tasks s2 = tasks s ++ [tk] -> jobs s2 = jobs s ++ [j] -> (alive s = false -> alive s2 = false) ->
  (forall i j', covered o s i j' -> covered o s2 i j') -> covered o s2 (length (tasks s)) j ->
  src_guard o s2 -> LiveInv o s2.
Proof.
  intros [L1 L2 L3 L4 L5] Hnj Hv Ht Hj Ha Hold Hnew Hg. split.
  - rewrite Ht, Hj, !app_length, L1. reflexivity.
  - intros i tk' j' Hi Hj'. rewrite Ht in Hi. rewrite Hj in Hj'.
    apply nth_error_snoc in Hi. apply nth_error_snoc in Hj'. rewrite L1 in Hj'.
    destruct Hi as [[Hlt Hi]|[-> ->]], Hj' as [[Hlt' Hj']|[E ->]]; try lia.
    + destruct (L2 i tk' j' Hi Hj') as [Q|C]; [left; apply (quiet_mono s); auto|right; auto].
    + right. exact Hnew.
  - exact Hg.
  - intros i Hi. rewrite Hj in Hi. apply nth_error_snoc in Hi.
    destruct Hi as [[_ Hi]|[_ E]]; [apply L4, Hi|congruence].
  - intros i tk' Hi Hv'. rewrite Ht in Hi. apply nth_error_snoc in Hi.
    destruct Hi as [[_ Hi]|[_ ->]]; [apply (L5 i tk' Hi Hv')|congruence].
Qed.

Lemma li_alive_off o s : LiveInv o s -> LiveInv o (upd_alive s false).
Proof. intros L. apply (li_upd o s); auto. apply (src_guard_same o s); auto. apply L. Qed.

Lemma li_slot_next o s v : LiveInv o s -> LiveInv o (fst (slot_next s v)).
Proof. intros L. exact L. Qed.

Lemma li_cancel_handler o s :
  match o with TDelaySubscription _ | TSubscribeOn => False | _ => True end ->
  LiveInv o s -> LiveInv o (match handler s with Some h => cancel_task s h | None => s end).
Proof. intros Hop L. destruct (handler s); [apply li_cancel; assumption|exact L]. Qed.

Lemma schedule_fields s b j delay :
  alive (fst (schedule s b j delay)) = alive s /\ multi (fst (schedule s b j delay)) = multi s /\
  handler (fst (schedule s b j delay)) = handler s /\ main_task (fst (schedule s b j delay)) = main_task s /\
  src_on (fst (schedule s b j delay)) = src_on s.
Proof. cbn. auto. Qed.

(* the new task's handle is appended to the MultiSubscription *)
Lemma li_relay_schedule o s j delay :
  (match o with TDelay _ | TObserveOn => True | _ => False end) -> LiveInv o s -> j <> JSubscribe ->
  LiveInv o (append_multi (fst (schedule s BOnce j delay)) (length (tasks s))).
Proof.
  intros Hop L Hj.
  assert (Cov : forall s' i j', covered o s' i j' = exists l, multi s' = Some l /\ In i l)
    by (intros; destruct o; try contradiction; reflexivity).
  assert (Hm : exists l, multi s = Some l) by (destruct L as [_ _ G _ _]; destruct o; try contradiction; exact G).
  destruct Hm as [l Hl]. unfold append_multi. cbn [schedule fst multi]. rewrite Hl.
  apply (li_schedule o s _ (spawn (BOnce (length (tasks s))) delay) j L Hj); auto.
  - intros i j' C. rewrite Cov in *. destruct C as (l0 & Hl0 & Hin). exists (l ++ [length (tasks s)]).
    split; [reflexivity|]. apply in_or_app. left. congruence.
  - rewrite Cov. exists (l ++ [length (tasks s)]). split; [reflexivity|]. apply in_or_app. right. left. reflexivity.
  - destruct o; try contradiction; eexists; reflexivity.
Qed.

(* the pending window, the only covered task, is cancelled and its handle dropped *)
Lemma li_debounce_drop d s :
  LiveInv (TDebounce d) s ->
  LiveInv (TDebounce d) (match handler s with Some h => upd_handler (cancel_task s h) None | None => s end).
Proof.
  intros L. destruct (handler s) as [h|] eqn:Eh; [|exact L].
  destruct (li_cancel (TDebounce d) s h I L) as [C1 C2 C3 C4 C5]. split; auto.
  intros i tk j Hi Hj. left. destruct (C2 i tk j Hi Hj) as [Q|C]; [exact Q|].
  cbn [covered] in C. rewrite cancel_task_upd in C. cbn [upd_tasks handler] in C. rewrite Eh in C.
  injection C as <-. right. left. apply (cancel_task_cancelled s h tk Hi).
Qed.

Lemma live_on_src o s e : not_raw o -> LiveInv o s -> LiveInv o (fst (on_src o s e)).
Proof.
  intros Ho L. destruct o; try contradiction; cbn [on_src]; try exact L.
  - (* delay *)
    destruct e as [v|x|]; cbn [schedule fst].
    + apply (li_relay_schedule (TDelay d) s (JEmit v) (Some d) I L). discriminate.
    + rewrite slot_term_eq. apply li_alive_off, L.
    + apply (li_relay_schedule (TDelay d) s JComplete (Some d) I L). discriminate.
  - (* observe_on *)
    cbn [schedule fst]. apply (li_relay_schedule TObserveOn s _ None I L). destruct e; discriminate.
  - (* debounce *)
    destruct e as [v|x|].
    + pose proof (li_debounce_drop d (upd_trailing s (Some v))) as L2.
      cbn [schedule fst].
      set (s1 := upd_trailing s (Some v)) in *.
      set (s2 := match handler s1 with Some h => upd_handler (cancel_task s1 h) None | None => s1 end) in *.
      assert (Hh : handler s2 = None) by (unfold s2; destruct (handler s1) eqn:E; [reflexivity|exact E]).
      apply (li_schedule _ s2 _ (spawn (BOnce (length (tasks s2))) (Some d)) JTrailing); auto.
      * apply L2, (li_fields _ s); auto.
      * discriminate.
      * intros i j' C. cbn [covered] in C. congruence.
      * reflexivity.
    + rewrite slot_term_eq. apply li_alive_off, L.
    + destruct (trailing s); cbn [slot_next]; rewrite slot_term_eq; apply li_alive_off; [apply (li_fields _ s); auto|exact L].
  - (* throttle *)
    destruct e as [v|x|].
    + set (closed := match handler s with Some h => task_finished s h | None => true end).
      set (s1 := match e0 with ELeading => s | ETailing => upd_trailing s (Some v)
                          | EAll => if closed then s else upd_trailing s (Some v) end).
      assert (L1 : LiveInv (TThrottle d e0) s1).
      { unfold s1. destruct e0; [exact L| |destruct closed; [exact L|]]; apply (li_fields _ s); auto. }
      destruct closed; [|exact L1].
      (* a new window: every slot job is covered *)
      assert (E2 : fst (match e0 with ETailing => (s1, []) | _ => slot_next s1 v end) = s1) by (destruct e0; reflexivity).
      destruct (match e0 with ETailing => (s1, []) | _ => slot_next s1 v end) as [s2 o2]. cbn [fst] in E2. subst s2.
      cbn [schedule fst].
      apply (li_schedule _ s1 _ (spawn (BOnce (length (tasks s1))) (Some d)) JTrailing L1); auto; [discriminate|reflexivity].
    + rewrite slot_term_eq. apply (li_cancel_handler (TThrottle d e0) (upd_alive s false) I), li_alive_off, L.
    + destruct (trailing s); cbn [slot_next]; rewrite slot_term_eq; apply li_alive_off, (li_cancel_handler (TThrottle d e0) _ I);
        [apply (li_fields _ s); auto|exact L].
  - (* buffer_with_time *)
    destruct e as [v|x|].
    + cbn [fst]. destruct (alive s); [apply (li_fields _ s); auto|exact L].
    + rewrite slot_term_eq. apply li_alive_off, L.
    + rewrite buffer_emit_split, slot_term_eq. apply li_alive_off, (li_fields _ s); auto.
  - (* buffer_with_count_and_time *)
    destruct e as [v|x|].
    + destruct (alive s); [|exact L]. destruct (Nat.leb count _); [rewrite buffer_emit_upd|]; apply (li_fields _ s); auto.
    + rewrite slot_term_eq. apply li_alive_off, L.
    + rewrite buffer_emit_split, slot_term_eq. apply li_alive_off, (li_fields _ s); auto.
Qed.

Lemma on_job_shape o s t j seq :
  let '(s1, out, c) := on_job o s t j seq in
  tasks s1 = tasks s /\ jobs s1 = jobs s /\ multi s1 = multi s /\ handler s1 = handler s /\ main_task s1 = main_task s /\
  (alive s = false -> alive s1 = false) /\
  (j = JSubscribe -> src_on s1 = true /\ c = false) /\ (j <> JSubscribe -> src_on s1 = src_on s).
Proof.
  (* the slot functions as equations: no case on `alive` is needed *)
  destruct j; cbn [on_job]; rewrite ?slot_term_eq; cbn [slot_next].
  4: destruct (trailing s).                                                              (* JTrailing *)
  6: destruct (alive s && negb (down_fin s)); [rewrite buffer_emit_split|].                 (* JFlush *)
  8: destruct (down_fin s).                                                                (* JInterval *)
  all: repeat split; auto; (discriminate || (intros; congruence)).
Qed.

Lemma live_step_run o s t : not_raw o -> LiveInv o s -> LiveInv o (fst (tstep o s (LRun t))).
Proof.
  intros Ho L. cbn [tstep].
  destruct (nth_error (tasks s) t) as [tk|] eqn:Et; [|exact L].
  destruct (nth_error (jobs s) t) as [j|] eqn:Ej; [|exact L].
  pose proof (poll_live (now s) tk (li_value o s L t tk Et)) as P.
  destruct (poll (now s) tk) as [tk1 res]. destruct P as (PS & PV & PVI & PR).
  (* whatever task t becomes, if it stays quiet when it was and finished when it stores a value ... *)
  assert (Task : forall tkf, (status_quiet tk1 -> status_quiet tkf) -> (t_value tk1 = true -> t_value tkf = true) ->
                             (t_value tkf = true -> t_stage tkf = StFinished) ->
                             LiveInv o (upd_tasks s (set_nth (tasks s) t tkf))).
  { intros tkf Hq Hv Hvi. apply (li_set_task o s t tk tkf L Et); auto. destruct o; auto. }
  destruct res as [|jn seq rep]; [apply Task; auto|].
  (* ... and the job changes no task: only the slot and, for a subscribing job, the input connection *)
  pose proof (on_job_shape o (upd_tasks s (set_nth (tasks s) t tk1)) t j seq) as SH.
  destruct (on_job o _ t j seq) as [[s2 out] c]. cbn [upd_tasks tasks jobs multi handler main_task alive src_on] in SH.
  destruct SH as (S1 & S2 & S3 & S4 & S5 & S6 & S7 & S8).
  assert (Key : forall tkf,
            (status_quiet tk1 -> status_quiet tkf) -> (t_value tk1 = true -> t_value tkf = true) ->
            (j = JSubscribe -> t_value tkf = true) -> (t_value tkf = true -> t_stage tkf = StFinished) ->
            LiveInv o (upd_tasks s2 (set_nth (tasks s) t tkf))).
  { intros tkf Hq Hv Hjs Hvi. pose proof (Task tkf Hq Hv Hvi) as Lf.
    apply (li_upd o _ _ Lf); cbn [upd_tasks tasks jobs multi handler main_task alive]; auto.
    assert (Ejs : j = JSubscribe \/ j <> JSubscribe) by (destruct j; (left; reflexivity) || (right; discriminate)).
    destruct Ejs as [Ejs|Ejs].
    - (* the subscribing task ran: it is task 0, its value is stored *)
      destruct (li_nosub o s L t) as [-> Hop]; [congruence|].
      assert (G : src_guard TSubscribeOn (upd_tasks s2 (set_nth (tasks s) 0 tkf))).
      { cbn [src_guard upd_tasks tasks jobs main_task src_on]. rewrite S5, S2. repeat split; [|congruence|].
        - destruct o; try contradiction; apply L.
        - intros _. exists tkf. split; [apply (nth_error_set_nth_eq _ _ _ _ Et)|auto]. }
      destruct o; try contradiction; exact G.
    - apply (src_guard_same o (upd_tasks s (set_nth (tasks s) t tkf))); [..|apply Lf]; auto. }
  destruct rep; cbn [fst].
  - rewrite S1, (nth_error_set_nth_eq _ _ _ _ Et), set_nth_idem. cbn [fst].
    apply (Key (after_tick (now s2) tk1 c)).
    + apply after_tick_status.
    + apply after_tick_value.
    + intros Ejs. destruct (S7 Ejs) as [_ ->]. destruct PR as (p & due & Hb).
      unfold after_tick. rewrite Hb. reflexivity.
    + apply SchedLaws.after_tick_value_inv, PVI.
  - rewrite <- (upd_tasks_same s2), S1. apply (Key tk1); auto.
Qed.

Lemma li_src_off o s done : LiveInv o s -> LiveInv o (upd_src s false done).
Proof.
  intros L. apply (li_upd o s); auto. destruct L as [_ _ G _ _].
  destruct o; cbn [src_guard upd_src src_on main_task jobs tasks multi] in *; auto.
  (* the subscribing operators: the guard speaks only of a connected input *)
  all: destruct G as (G1 & G2 & _); repeat split; auto; discriminate.
Qed.

Lemma live_step o s l : not_raw o -> LiveInv o s -> l <> LUnsub -> LiveInv o (fst (tstep o s l)).
Proof.
  intros Ho L Hl.
  destruct (raw_lab l) eqn:Er; [rewrite (tstep_raw_lab o s l Ho Er); exact L|].
  destruct l; try discriminate Er; try congruence.
  - (* LSrc *)
    cbn [tstep]. destruct (src_done s); [exact L|].
    assert (L1 : LiveInv o (if is_term e then upd_src s false true else s)) by (destruct (is_term e); [apply li_src_off|]; exact L).
    destruct (src_on s); [apply live_on_src; assumption|exact L1].
  - apply live_step_run; assumption.
  - cbn [tstep fst]. apply (li_fields o s); auto.
  - exact L.
  - cbn [tstep fst]. apply (li_fields o s); auto.
Qed.

Lemma li_no_task o s : tasks s = [] -> jobs s = [] -> src_guard o s -> LiveInv o s.
Proof.
  intros Ht Hj G. split; rewrite ?Ht, ?Hj; auto.
  - intros [|i] tk j; discriminate.
  - intros [|i]; discriminate.
  - intros [|i] tk; discriminate.
Qed.

Lemma li_one_task o s tk j :
  tasks s = [tk] -> jobs s = [j] -> t_value tk = false -> covered o s 0 j ->
  (j = JSubscribe -> match o with TDelaySubscription _ | TSubscribeOn => True | _ => False end) ->
  src_guard o s -> LiveInv o s.
Proof.
  intros Ht Hj Hv C Hs G. split; rewrite ?Ht, ?Hj; auto.
  - intros i tk' j'. rewrite !nth_error_single. destruct i; [|discriminate]. intros [= <-] [= <-]. right. exact C.
  - intros i. rewrite nth_error_single. destruct i; [|discriminate]. intros [= ->]. split; [reflexivity|apply Hs; reflexivity].
  - intros i tk'. rewrite nth_error_single. destruct i; [|discriminate]. intros [= <-] Hv'. congruence.
Qed.

Lemma live_init o : not_raw o -> LiveInv o (tinit o).
Proof.
  intros Ho. destruct o; try contradiction; cbn [tinit schedule].
  - (* delay *) apply li_no_task; [reflexivity..|]. eexists; reflexivity.
  - (* observe_on *) apply li_no_task; [reflexivity..|]. eexists; reflexivity.
  - (* delay_subscription *) eapply li_one_task; [reflexivity..|intros _; exact I|]. repeat split; discriminate.
  - (* subscribe_on *) eapply li_one_task; [reflexivity..|intros _; exact I|]. repeat split; discriminate.
  - (* debounce *) apply li_no_task; [reflexivity..|exact I].
  - (* throttle *) apply li_no_task; [reflexivity..|exact I].
  - (* buffer_with_time *) eapply li_one_task; [reflexivity..|discriminate|exact I].
  - (* buffer_with_count_and_time *) eapply li_one_task; [reflexivity..|discriminate|exact I].
  - (* interval *) eapply li_one_task; [reflexivity..|discriminate|reflexivity].
  - (* interval_at *) eapply li_one_task; [reflexivity..|discriminate|reflexivity].
  - (* timer *) eapply li_one_task; [reflexivity..|discriminate|reflexivity].
Qed.

(* the state reached from s by the labels ls *)
Fixpoint tfinal (o : top) (s : tsys) (ls : list tlab) : tsys :=
  match ls with [] => s | l :: r => tfinal o (fst (tstep o s l)) r end.

Lemma inv_reach o ls : not_raw o -> forall s, (LiveInv o s \/ Silent s) -> LiveInv o (tfinal o s ls) \/ Silent (tfinal o s ls).
Proof.
  intros Ho. induction ls as [|l r IH]; intros s H; [exact H|]. cbn [tfinal]. apply IH.
  destruct H as [L|HS].
  - destruct l; try (left; apply live_step; [exact Ho|exact L|discriminate]).
    right. cbn [tstep]. apply live_unsub_silent; assumption.
  - right. apply (silent_step o s l Ho HS).
Qed.

Lemma silent_run o : not_raw o -> forall ls s j, Silent s -> no_tout (trun_sys o s j ls).
Proof.
  intros Ho ls. induction ls as [|l r IH]; intros s j HS; [apply no_tout_nil|].
  cbn [trun_sys]. destruct (silent_step o s l Ho HS) as [S1 N1].
  destruct (tstep o s l) as [s1 out]. cbn [fst snd] in *.
  intros x [<-|Hx]; [exact I|]. apply in_app_or in Hx. destruct Hx as [Hx|Hx]; [apply N1, Hx|apply (IH s1 (S j) S1 x Hx)].
Qed.

(* C02: whatever happened before (ls1), once unsubscribe() has returned, whatever happens afterwards (ls2: the
   input emits, tasks are polled in any order, the clock advances) the subscriber is not called. *)
Theorem unsubscribe_silences o ls1 ls2 j :
  not_raw o ->
  no_tout (trun_sys o (fst (tstep o (tfinal o (tinit o) ls1) LUnsub)) j ls2).
Proof.
  intros Ho. apply silent_run; [exact Ho|].
  destruct (inv_reach o ls1 Ho (tinit o) (or_introl (live_init o Ho))) as [L|HS].
  - cbn [tstep]. apply live_unsub_silent; assumption.
  - apply (silent_step o _ LUnsub Ho HS).
Qed.

Lemma trun_sys_app o : forall a s j b,
  trun_sys o s j (a ++ b) = trun_sys o s j a ++ trun_sys o (tfinal o s a) (j + length a) b.
Proof.
  induction a as [|l r IH]; intros s j b.
  - cbn. rewrite Nat.add_0_r. reflexivity.
  - cbn [app trun_sys tfinal length]. destruct (tstep o s l) as [s1 out]. cbn [fst].
    rewrite IH. cbn [app]. rewrite <- app_assoc. replace (S j + length r)%nat with (j + S (length r))%nat by lia. reflexivity.
Qed.

(* in the trace of ls1 ++ unsubscribe :: ls2, no subscriber call from the unsubscribe label on *)
Theorem timed_unsubscribe_final o ls1 ls2 :
  not_raw o ->
  exists before after,
    run_timed o (ls1 ++ LUnsub :: ls2) = before ++ TMark (length ls1) :: after /\
    before = run_timed o ls1 /\ no_tout after.
Proof.
  intros Ho. unfold run_timed. rewrite trun_sys_app. cbn [trun_sys].
  set (s := tfinal o (tinit o) ls1).
  pose proof (on_unsub_no_tout o s) as N1.
  pose proof (unsubscribe_silences o ls1 ls2 (S (0 + length ls1)) Ho) as N2. fold s in N2.
  cbn [tstep] in *. destruct (on_unsub o s) as [s1 out]. cbn [fst snd] in *.
  exists (trun_sys o (tinit o) 0 ls1), (out ++ trun_sys o s1 (S (0 + length ls1)) ls2).
  split; [reflexivity|]. split; [reflexivity|]. apply no_tout_app; assumption.
Qed.

Lemma closed_src_off o s : not_raw o -> src_guard o s -> sub_closed o s = true -> src_on s = false.
Proof.
  intros Ho G Hc. destruct (src_on s) eqn:Es; [exfalso|reflexivity].
  destruct o; try contradiction; cbn [sub_closed src_guard] in *; rewrite ?Es in Hc; cbn [negb andb] in Hc; try congruence.
  (* left: the forms with `negb (src_on s)` as the second conjunct *)
  all: try destruct (main_task s); rewrite ?andb_false_r in Hc; discriminate.
Qed.

Lemma closed_covered o s i j :
  sub_closed o s = true -> covered o s i j -> task_finished s i = true \/ (alive s = false /\ slot_job j = true).
Proof.
  intros Hc C. destruct o; cbn [sub_closed covered] in *.
  - (* delay *)
    destruct C as (l & Hl & Hin). rewrite Hl in Hc. apply andb_prop in Hc. left. apply (proj1 (forallb_forall _ _) (proj2 Hc) i Hin).
  - (* observe_on *)
    destruct C as (l & Hl & Hin). rewrite Hl in Hc. apply andb_prop in Hc. left. apply (proj1 (forallb_forall _ _) (proj2 Hc) i Hin).
  - (* delay_subscription *) rewrite C in Hc. apply andb_prop in Hc. left. apply Hc.
  - (* subscribe_on *) rewrite C in Hc. apply andb_prop in Hc. left. apply Hc.
  - (* debounce *) rewrite C, andb_false_r in Hc. discriminate.
  - (* throttle *) apply andb_prop in Hc. right. split; [apply Bool.negb_true_iff, Hc|exact C].
  - (* buffer_with_time *) rewrite C in Hc. apply andb_prop in Hc. left. apply Hc.
  - (* buffer_with_count_and_time *) rewrite C in Hc. apply andb_prop in Hc. left. apply Hc.
  - (* interval *) rewrite C in Hc. left. exact Hc.
  - (* interval_at *) rewrite C in Hc. left. exact Hc.
  - (* timer *) rewrite C in Hc. left. exact Hc.
  - (* raw *) contradiction.
Qed.

Lemma closed_live_silent o s : not_raw o -> LiveInv o s -> sub_closed o s = true -> Silent s.
Proof.
  intros Ho L Hc. split; [apply (closed_src_off o s Ho (li_src o s L) Hc)|].
  intros i tk j Hi Hj. destruct (li_tasks o s L i tk j Hi Hj) as [Q|C]; [exact Q|].
  destruct (closed_covered o s i j Hc C) as [F|D]; [left|right; right; exact D].
  unfold task_finished in F. rewrite Hi in F. apply (li_value o s L i tk Hi F).
Qed.

(* C17: in every reachable state, once is_closed() answers true the subscriber is never called again *)
Theorem closed_sound o ls1 ls2 j :
  not_raw o ->
  sub_closed o (tfinal o (tinit o) ls1) = true ->
  no_tout (trun_sys o (tfinal o (tinit o) ls1) j ls2).
Proof.
  intros Ho Hc. apply silent_run; [exact Ho|].
  destruct (inv_reach o ls1 Ho (tinit o) (or_introl (live_init o Ho))) as [L|HS]; [|exact HS].
  apply (closed_live_silent o _ Ho L Hc).
Qed.
