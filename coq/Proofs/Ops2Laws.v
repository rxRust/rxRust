(* Every two-input machine follows its streaming definition on every timeline and is
   silent after the output has ended. *)
From RxSpec Require Import Ops2Spec.

(* The machine state that holds what the streaming definition remembers, with the slot still full.
   (From specification to machine, as FinalizeLaws.abs; SubjectLaws.absf goes the other way.) *)
Definition abs (k : acc) : st2 :=
  {| alive := true; qa := pa k; qb := pb k; la := aa k; lb := ab k; c1 := one_done k; skipping := gate_closed k |}.

(* Every output goes through the slot, and only `slot_term` writes it: with the slot empty a
   step emits nothing and leaves it empty. *)
Definition quiet (r : st2 * list ev) : Prop := alive (fst r) = false /\ snd r = [].

Lemma quiet_next s v : alive s = false -> quiet (slot_next s v).
Proof. intros H. unfold slot_next. rewrite H. split; auto. Qed.

Lemma quiet_term s e : alive s = false -> quiet (slot_term s e).
Proof. intros H. unfold slot_term. rewrite H. split; auto. Qed.

Lemma quiet_second s : alive s = false -> quiet (complete_second s).
Proof. intros H. unfold complete_second. destruct (c1 s); [apply quiet_term, H|split; auto]. Qed.

Lemma dead_step o s sd e : alive s = false -> alive (fst (step2 o s sd e)) = false /\ snd (step2 o s sd e) = [].
Proof.
  intros H. change (quiet (step2 o s sd e)).
  destruct o, sd, e; cbn [step2]; rewrite ?H;
    repeat match goal with |- context [match ?x with _ => _ end] => destruct x end;
    auto using quiet_next, quiet_term, quiet_second; split; auto.
Qed.

Lemma silent o s la lb tl : alive s = false -> run2 o s la lb tl = [].
Proof.
  revert s la lb. induction tl as [|[sd e] r IH]; intros s la lb H; [reflexivity|].
  cbn [run2]. destruct (match sd with A => la | B => lb end); [|apply IH, H].
  destruct (dead_step o s sd e H) as [Ha Ho].
  destruct (step2 o s sd e) as [s' out]. cbn in *. subst out. apply IH, Ha.
Qed.

(* One arrival in a live state against the definition: the same output, and the slot is emptied
   exactly when the definition says the output has ended; otherwise the states correspond. *)
Definition sim (r : st2 * list ev) (r' : acc * list ev * bool) : Prop :=
  snd r = snd (fst r') /\
  if snd r' then alive (fst r) = false else fst r = abs (fst (fst r')).

(* `s = abs k` is a premise because the states met are `set_x (abs k) v`, which is `abs (with_x k v)`
   only up to computation: applying the lemma fixes `k` from the definition's side, `reflexivity` does the rest. *)
Lemma sim_cont s k out : s = abs k -> sim (s, out) (cont k out).
Proof. intros ->. split; reflexivity. Qed.

Lemma sim_stop s k out : alive s = false -> sim (s, out) (stop k out).
Proof. intros H. split; [reflexivity|exact H]. Qed.

Lemma sim_next s k v : s = abs k -> sim (slot_next s v) (cont k [Next v]).
Proof. intros ->. split; reflexivity. Qed.

Lemma sim_term s k e : s = abs k -> sim (slot_term s e) (stop k [e]).
Proof. intros ->. split; reflexivity. Qed.

Lemma sim_second k : sim (complete_second (abs k)) (both_done k).
Proof.
  unfold complete_second, both_done. cbn [c1 abs].
  destruct (one_done k); [apply sim_term|]; split; reflexivity.
Qed.

Lemma emit_flush k : emit_data (abs k) = (abs (with_pa k []), flush k).
Proof. destruct k as [a b [|x p] q d g]; reflexivity. Qed.

Lemma step_sim o k sd e : sim (step2 o (abs k) sd e) (sstep o k sd e).
Proof.
  destruct o, sd, e;
    cbn [step2 sstep abs alive qa qb la lb skipping set_la set_lb with_aa with_ab aa ab];
    rewrite ?emit_flush;
    repeat match goal with |- context [match ?x with _ => _ end] => destruct x end;
    auto using sim_cont, sim_stop, sim_next, sim_term, sim_second.
Qed.

Lemma clean_cons la lb sd e r :
  clean la lb ((sd, e) :: r) =
  if match sd with A => la | B => lb end
  then (sd, e) :: clean (match sd with A => negb (is_term e) | B => la end)
                        (match sd with B => negb (is_term e) | A => lb end) r
  else clean la lb r.
Proof. destruct sd; reflexivity. Qed.

Lemma run2_spec o k la lb tl : run2 o (abs k) la lb tl = spec2 o k (clean la lb tl).
Proof.
  revert k la lb. induction tl as [|[sd e] r IH]; intros k la lb; [reflexivity|].
  rewrite clean_cons. cbn [run2]. destruct (match sd with A => la | B => lb end); [|apply IH].
  cbn [spec2]. destruct (step_sim o k sd e) as [Eo Es].
  destruct (sstep o k sd e) as [[k' out] ended], (step2 o (abs k) sd e) as [s' out'].
  cbn [fst snd] in Eo, Es. subst out'. destruct ended.
  - rewrite silent by exact Es. apply app_nil_r.
  - subst s'. rewrite IH. reflexivity.
Qed.

Theorem op2_meets_spec o tl : run_op2 o tl = spec_op2 o tl.
Proof. exact (run2_spec o acc0 true true tl). (* init2 o computes to abs acc0 *) Qed.

(* merge: over a stretch of the timeline without any terminal the output is every item of both
   inputs in arrival order (whatever `k` remembers, e.g. that one input completed earlier) *)
Lemma merge_items tl k :
  no_terminal tl = true -> spec2 OMerge k tl = map Next (all_items tl).
Proof.
  revert k. induction tl as [|[sd e] r IH]; intros k H; [reflexivity|].
  destruct e; cbn in H; try discriminate. cbn. f_equal. apply IH, H.
Qed.

(* take_until: before the notifier's first item and A's terminal: exactly A's items *)
Lemma take_until_items tl k :
  no_terminal tl = true -> items_side B tl = [] -> spec2 OTakeUntil k tl = map Next (items_side A tl).
Proof.
  revert k. induction tl as [|[sd e] r IH]; intros k H HB; [reflexivity|].
  destruct e; cbn in H; try discriminate. destruct sd; cbn in *.
  - f_equal. apply IH; assumption.
  - discriminate.
Qed.

