(* val_eqb decides equality. *)
From RxModel Require Import Base.

(* The induction principle Coq derives for val gives no hypothesis for the elements of the nested
   `list val` under VL; this one does. *)
Section ValInd.
  Variable P : val -> Prop.
  Hypothesis HZ : forall z, P (VZ z).
  Hypothesis HB : forall b, P (VB b).
  Hypothesis HU : P VU.
  Hypothesis HP : forall a b, P a -> P b -> P (VP a b).
  Hypothesis HL : forall l, Forall P l -> P (VL l).
  Hypothesis HN : P (VOpt None).
  Hypothesis HS : forall a, P a -> P (VOpt (Some a)).

  Fixpoint val_ind' (v : val) : P v :=
    match v with
    | VZ z => HZ z
    | VB b => HB b
    | VU => HU
    | VP a b => HP a b (val_ind' a) (val_ind' b)
    | VL l => HL l ((fix go (l : list val) : Forall P l :=
                       match l with
                       | [] => Forall_nil P
                       | x :: r => Forall_cons x (val_ind' x) (go r)
                       end) l)
    | VOpt None => HN
    | VOpt (Some a) => HS a (val_ind' a)
    end.
End ValInd.

Lemma val_eqb_eq a : forall b, val_eqb a b = true <-> a = b.
Proof.
  induction a as [z|b| |a1 a2 IHa1 IHa2|l H| |a IHa] using val_ind'; intros [z'|b'| |a' b'|l'|[x|]]; cbn;
    try (split; discriminate).
  - rewrite Z.eqb_eq. split; congruence.
  - rewrite Bool.eqb_true_iff. split; congruence.
  - split; reflexivity.
  - rewrite Bool.andb_true_iff, IHa1, IHa2. split; [intros [-> ->]; reflexivity|intros E; inversion E; auto].
  - revert l'. induction H as [|x l Hx Hl IH]; intros [|y l']; try (split; discriminate).
    + split; reflexivity.
    + rewrite Bool.andb_true_iff, Hx, IH. split; [intros [-> E]; inversion E; reflexivity|intros E; inversion E; auto].
  - split; reflexivity.
  - rewrite IHa. split; congruence.
Qed.

Lemma val_eqb_refl a : val_eqb a a = true.
Proof. apply val_eqb_eq. reflexivity. Qed.

Lemma val_eqb_spec a b : reflect (a = b) (val_eqb a b).
Proof. apply iff_reflect. symmetry. apply val_eqb_eq. Qed.

Lemma val_eqb_sym a b : val_eqb a b = val_eqb b a.
Proof. destruct (val_eqb_spec a b), (val_eqb_spec b a); congruence. Qed.

Lemma mem_In v l : mem v l = true <-> In v l.
Proof.
  unfold mem. rewrite existsb_exists. split.
  - intros (x & Hx & E). apply val_eqb_eq in E. subst. exact Hx.
  - intros H. exists v. split; [exact H|apply val_eqb_refl].
Qed.
